(* Props/C13.v — literals denote exactly the value they spell; out-of-range ones are rejected. *)
From Coq Require Import ZArith List Bool Reals Floats.SpecFloat.
From Flocq Require Import Core.Zaux Core.Raux Core.Defs Core.Generic_fmt Core.FLT Core.Round_NE IEEE754.BinarySingleNaN.
From Rscel Require Import Base.Prims Base.F64 Base.Text Model.Value Model.Lexer Model.Ast Model.Parser.
From Rscel Require Import Proofs.Literals Proofs.FloatLit Proofs.StrLit Proofs.Conv Proofs.LitProgram.
From Rscel Require Import Model.Compile Model.Interp.
Import ListNotations.
Open Scope Z_scope.

(** integers: the decimal spelling of n reads back as n; the token exists iff n fits 64 bits *)
Theorem C13_decimal_denotes : forall n, 0 <= n -> digits_value_base 10 (dec_of_nonneg n) = Some n.
Proof. exact decimal_denotes. Qed.
Print Assumptions C13_decimal_denotes.

Theorem C13_int_literal_denotes : forall n first ds tail s, 0 <= n ->
  dec_of_nonneg n = first :: ds -> sc_rest s = ds ++ tail -> tail_ends false tail ->
  lex_number [first] false s =
  if in_u64 n then LOk (TIntLit n) (advance s ds) else LErr (sc_loc (advance s ds)).
Proof. exact int_literal_denotes. Qed.
Print Assumptions C13_int_literal_denotes.

Theorem C13_uint_literal_denotes : forall n first ds u tail s, 0 <= n ->
  dec_of_nonneg n = first :: ds -> sc_rest s = ds ++ u :: tail -> (u = 117 \/ u = 85) ->
  lex_number [first] false s =
  if in_u64 n then LOk (TUIntLit n) (advance s (ds ++ [u])) else LErr (sc_loc (advance s (ds ++ [u]))).
Proof. exact uint_literal_denotes. Qed.
Print Assumptions C13_uint_literal_denotes.

(** hexadecimal, digits a-f in either case *)
Theorem C13_hex_literal_denotes : forall dch fuel n x tail s,
  good_alphabet 16 dch -> (0 < fuel)%nat -> 0 <= n < 16 ^ Z.of_nat fuel -> (x = 120 \/ x = 88) ->
  sc_rest s = x :: render 16 dch fuel n [] ++ tail -> tail_ends true tail ->
  exists s', sc_rest s' = tail /\
  lex_number [48] false s = if in_u64 n then LOk (TIntLit n) s' else LErr (sc_loc s').
Proof. exact hex_literal_denotes. Qed.
Print Assumptions C13_hex_literal_denotes.

Theorem C13_hex_alphabets : good_alphabet 16 hex_lower /\ good_alphabet 16 hex_upper /\ good_alphabet 10 dec_ch.
Proof. exact (conj hex_lower_good (conj hex_upper_good dec_ch_good)). Qed.
Print Assumptions C13_hex_alphabets.

(** an integer token above i64::MAX is a syntax error in the parser, not a wrapped value *)
Theorem C13_int_token_range : forall rec_expr rec_src t t' v l,
  tz_next t = TOk (Some (mkTok (TIntLit v) l)) t' ->
  p_primary rec_expr rec_src t = if v <=? i64_max then POk (PrLit l (LInt v)) t' else PErr (r_start l).
Proof.
  intros rec_expr rec_src t t' v l H. unfold p_primary, pbind, next. rewrite H.
  destruct (v <=? i64_max); reflexivity.
Qed.
Print Assumptions C13_int_token_range.

(** doubles: text -> (mantissa, exponent) -> correctly rounded binary64 *)
Theorem C13_float_text_plain : forall ip fp,
  Forall (fun c => is_digit c = true) ip -> Forall (fun c => is_digit c = true) fp -> (0 < length ip + length fp)%nat ->
  parse_float_text (ip ++ 46 :: fp) = Some (dec_to_f64 (dec_value (ip ++ fp) 0) (- Z.of_nat (length fp))).
Proof. exact float_text_plain. Qed.
Print Assumptions C13_float_text_plain.

Theorem C13_float_text_exp : forall ip fp ex sgn e,
  Forall (fun c => is_digit c = true) ip -> Forall (fun c => is_digit c = true) fp ->
  Forall (fun c => is_digit c = true) ex -> (0 < length ip + length fp)%nat -> (0 < length ex)%nat ->
  (e = 101 \/ e = 69) -> (sgn = [] \/ sgn = [43] \/ sgn = [45]) ->
  dec_value ex 0 <= Z.of_nat (length ip) + Z.of_nat (length fp) + 2000 ->
  parse_float_text (ip ++ 46 :: fp ++ e :: sgn ++ ex) =
  Some (dec_to_f64 (dec_value (ip ++ fp) 0)
          ((match sgn with [45] => - dec_value ex 0 | _ => dec_value ex 0 end) - Z.of_nat (length fp))).
Proof. exact float_text_exp. Qed.
Print Assumptions C13_float_text_exp.

Theorem C13_float_correctly_rounded : forall pm e,
  let x := dec_real (Zpos pm) e in
  let z := dec_to_f64 (Zpos pm) e in
  if Rlt_bool (Rabs (round radix2 (FLT_exp (3 - 1024 - 53) 53) ZnearestE x)) (bpow radix2 1024) then
    SF2R radix2 z = round radix2 (FLT_exp (3 - 1024 - 53) 53) ZnearestE x /\ is_finite_SF z = true
  else z = S754_infinity false.
Proof. exact dec_to_f64_correctly_rounded. Qed.
Print Assumptions C13_float_correctly_rounded.

(** strings: every character in any of its spellings, chosen independently *)
Theorem C13_string_denotes : forall q, q <> 92 -> forall items fuel s tail work,
  Forall (fun it => spells q (fst it) (snd it)) items ->
  sc_rest s = text_of items ++ q :: tail -> (length items < fuel)%nat ->
  lex_string fuel q false false s work [] =
  LOk (TStringLit (rev work ++ map fst items)) (advance s (text_of items ++ [q])).
Proof. exact lex_string_denotes. Qed.
Print Assumptions C13_string_denotes.

Theorem C13_raw_string_denotes : forall q cs fuel s tail work,
  Forall (fun c => c <> q) cs -> sc_rest s = cs ++ q :: tail -> (length cs < fuel)%nat ->
  lex_string fuel q true false s work [] = LOk (TStringLit (rev work ++ cs)) (advance s (cs ++ [q])).
Proof. exact lex_raw_string_denotes. Qed.
Print Assumptions C13_raw_string_denotes.

Theorem C13_bytes_denotes : forall q, q <> 92 -> forall items fuel s tail acc,
  Forall (fun it => bspells q (fst it) (snd it)) items ->
  sc_rest s = btext_of items ++ q :: tail -> (length items < fuel)%nat ->
  lex_bytes fuel q s acc = LOk (TByteStringLit (rev acc ++ bytes_of_items items)) (advance s (btext_of items ++ [q])).
Proof. exact lex_bytes_denotes. Qed.
Print Assumptions C13_bytes_denotes.

(** rejections *)
Theorem C13_bytes_octal_out_of_range : forall q a b c fuel s tail acc, q <> 92 ->
  4 <= a <= 7 -> 0 <= b <= 7 -> 0 <= c <= 7 ->
  sc_rest s = 92 :: (48 + a) :: (48 + b) :: (48 + c) :: tail ->
  lex_bytes (S fuel) q s acc = LErr (sc_loc (advance s [92; 48 + a; 48 + b; 48 + c])).
Proof. exact lex_bytes_octal_out_of_range. Qed.
Print Assumptions C13_bytes_octal_out_of_range.

Theorem C13_string_bad_code_point : forall q hs u fuel s tail work, q <> 92 ->
  (u = 117 /\ length hs = 4%nat \/ u = 85 /\ length hs = 8%nat) ->
  Forall (fun h => is_hex h = true) hs -> is_scalar (hex_value hs) = false ->
  sc_rest s = 92 :: u :: hs ++ tail ->
  lex_string (S fuel) q false false s work [] = LErr (sc_loc (advance s (92 :: u :: hs))).
Proof. exact lex_string_bad_code_point. Qed.
Print Assumptions C13_string_bad_code_point.

(** non-vacuity: concrete literals through the whole tokenizer *)
Example C13_examples :
  option_map (map t_tok) (match lex [48; 120; 102; 70] with LOk l _ => Some l | _ => None end) = Some [TIntLit 255] /\
  option_map (map t_tok) (match lex [39; 92; 117; 48; 48; 101; 57; 92; 49; 48; 49; 39] with LOk l _ => Some l | _ => None end)
    = Some [TStringLit [233; 65]] /\
  (match lex [98; 39; 92; 52; 48; 48; 39] with LErr _ => true | _ => false end) = true /\
  option_map (map t_tok) (match lex [46; 49] with LOk l _ => Some l | _ => None end)
    = Some [TFloatLit (S754_finite false 7205759403792794 (-56))].
Proof. vm_compute. repeat split. Qed.

(** from source text to token list: the decimal spelling of n alone in a source lexes to the one
    integer token n, spanning the whole text *)
Theorem C13_lex_decimal_source : forall n, 0 <= n -> in_u64 n = true ->
  exists s', lex (dec_of_nonneg n) =
    LOk [mkTok (TIntLit n) (mkRange (mkLoc 0 0) (mkLoc 0 (Z.of_nat (length (dec_of_nonneg n)))))] s'.
Proof. exact lex_decimal_source. Qed.
Print Assumptions C13_lex_decimal_source.

(** * From source text to value (tokenizer, parser, compiler and VM composed)

    A source consisting of one literal compiles, for any fuel >= 1, to the
    one-instruction program that pushes the literal's value, and that program
    evaluates to the value under any environment. *)

Theorem C13_single_literal_program : forall f src tk rng send l v,
  collect_token (mkScan src 0 0) = LOk (Some (mkTok tk rng)) send -> sc_rest send = [] ->
  lit_of_token tk = Some l -> lit_val l = Some v ->
  compile_source (S f) src = COk (mkProgram [IPush v] [] (lit_tree rng l)) 2%nat.
Proof. exact compile_single_literal. Qed.
Print Assumptions C13_single_literal_program.

Theorem C13_decimal_source_evaluates : forall n f g E d lg, 0 <= n <= i64_max -> (d < 32)%nat ->
  exists p k, compile_source (S f) (dec_of_nonneg n) = COk p k /\
              run (S (S (S g))) E (pr_code p) true d lg = (ROk (VInt n), lg).
Proof. exact decimal_source_evaluates. Qed.
Print Assumptions C13_decimal_source_evaluates.

Theorem C13_uint_source_evaluates : forall n u f g E d lg, 0 <= n <= u64_max -> (u = 117 \/ u = 85) -> (d < 32)%nat ->
  exists p k, compile_source (S f) (dec_of_nonneg n ++ [u]) = COk p k /\
              run (S (S (S g))) E (pr_code p) true d lg = (ROk (VUInt n), lg).
Proof. exact uint_source_evaluates. Qed.
Print Assumptions C13_uint_source_evaluates.

Theorem C13_string_source_evaluates : forall q items f g E d lg, (q = 39 \/ q = 34) ->
  Forall (fun it => spells q (fst it) (snd it)) items -> (d < 32)%nat ->
  exists p k, compile_source (S f) (q :: text_of items ++ [q]) = COk p k /\
              run (S (S (S g))) E (pr_code p) true d lg = (ROk (VString (utf8_encode (map fst items))), lg).
Proof. exact string_source_evaluates. Qed.
Print Assumptions C13_string_source_evaluates.

Theorem C13_raw_string_source_evaluates : forall q cs f g E d lg, (q = 39 \/ q = 34) -> Forall (fun c => c <> q) cs -> (d < 32)%nat ->
  exists p k, compile_source (S f) (114 :: q :: cs ++ [q]) = COk p k /\
              run (S (S (S g))) E (pr_code p) true d lg = (ROk (VString (utf8_encode cs)), lg).
Proof. exact raw_string_source_evaluates. Qed.
Print Assumptions C13_raw_string_source_evaluates.

Theorem C13_bytes_source_evaluates : forall q items f g E d lg, (q = 39 \/ q = 34) ->
  Forall (fun it => bspells q (fst it) (snd it)) items -> (d < 32)%nat ->
  exists p k, compile_source (S f) (98 :: q :: btext_of items ++ [q]) = COk p k /\
              run (S (S (S g))) E (pr_code p) true d lg = (ROk (VBytes (bytes_of_items items)), lg).
Proof. exact bytes_source_evaluates. Qed.
Print Assumptions C13_bytes_source_evaluates.

Theorem C13_hex_source_evaluates : forall dch fuel n x f g E d lg,
  good_alphabet 16 dch -> (0 < fuel)%nat -> 0 <= n < 16 ^ Z.of_nat fuel -> (x = 120 \/ x = 88) -> n <= i64_max -> (d < 32)%nat ->
  exists p k, compile_source (S f) (48 :: x :: render 16 dch fuel n []) = COk p k /\
              run (S (S (S g))) E (pr_code p) true d lg = (ROk (VInt n), lg).
Proof. exact hex_source_evaluates. Qed.
Print Assumptions C13_hex_source_evaluates.

(** a double literal I.F evaluates to dec_to_f64 of its digits, i.e. (C13_float_correctly_rounded) to the
    nearest binary64 value, ties to even, of the decimal number written *)
Theorem C13_float_source_evaluates : forall d0 ip fp f g E d lg,
  Forall (fun c => is_digit c = true) (d0 :: ip) -> Forall (fun c => is_digit c = true) fp -> (d < 32)%nat ->
  exists p k, compile_source (S f) (d0 :: ip ++ 46 :: fp) = COk p k /\
              run (S (S (S g))) E (pr_code p) true d lg =
                (ROk (VFloat (dec_to_f64 (dec_value ((d0 :: ip) ++ fp) 0) (- Z.of_nat (length fp)))), lg).
Proof. exact float_source_evaluates. Qed.
Print Assumptions C13_float_source_evaluates.

(** ... and with an exponent,  I.F e [+|-] X  (the bound on X is the model's cap on absurd exponents) *)
Theorem C13_float_exp_source_evaluates : forall d0 ip fp e sg ex f g E d lg,
  Forall (fun c => is_digit c = true) (d0 :: ip) -> Forall (fun c => is_digit c = true) fp ->
  Forall (fun c => is_digit c = true) ex -> ex <> [] ->
  (e = 101 \/ e = 69) -> (sg = [] \/ sg = [43] \/ sg = [45]) ->
  dec_value ex 0 <= Z.of_nat (length (d0 :: ip)) + Z.of_nat (length fp) + 2000 -> (d < 32)%nat ->
  exists p k, compile_source (S f) (d0 :: ip ++ 46 :: fp ++ e :: sg ++ ex) = COk p k /\
              run (S (S (S g))) E (pr_code p) true d lg =
                (ROk (VFloat (dec_to_f64 (dec_value ((d0 :: ip) ++ fp) 0)
                               ((match sg with [45] => - dec_value ex 0 | _ => dec_value ex 0 end) - Z.of_nat (length fp)))), lg).
Proof. exact float_exp_source_evaluates. Qed.
Print Assumptions C13_float_exp_source_evaluates.
