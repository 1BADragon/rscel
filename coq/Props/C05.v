(* Props/C05.v — ||, &&, ?: are lazy and absorb failures by fixed rules; one truthiness. *)
From Coq Require Import ZArith List Bool.
From Rscel Require Import Base.Prims Model.Value Model.Ops Model.Funcs Model.Interp.
From Rscel Require Import Model.Lexer Model.Ast Model.Parser Model.Compile Proofs.Blocks Proofs.Chains Proofs.MatchBlock Proofs.Truthy Proofs.Shapes.
From Coq Require Strings.String.
Import Coq.Strings.String.StringSyntax.
Import ListNotations.
Import Coq.Strings.String.StringSyntax.
Open Scope Z_scope.

(** a || b with a truthy: true, and NOTHING of b runs — the statement holds for
    every code [cb] whatsoever (even code that would crash the VM). *)
Theorem C05_or_short_circuit : forall rs E d ca cb lg sva lg1 va lg2,
  pushes rs E d ca lg sva lg1 -> resolves rs E d sva lg1 va lg2 ->
  is_err va = false -> is_truthy va = true ->
  forall st, exists f, loop rs f E d (or_code ca cb) O st lg = (ROk (SVal (VBool true) :: st), lg2).
Proof. exact or_short_circuit. Qed.
Print Assumptions C05_or_short_circuit.

(** a && b with a falsy or failing: false resp. the failure of a, and nothing of b runs. *)
Theorem C05_and_short_circuit : forall rs E d ca cb lg sva lg1 va lg2,
  pushes rs E d ca lg sva lg1 -> resolves rs E d sva lg1 va lg2 ->
  (is_err va = true \/ is_truthy va = false) ->
  forall st, exists f,
    loop rs f E d (and_code ca cb) O st lg =
    (ROk (SVal (if is_err va then va else VBool false) :: st), lg2).
Proof. exact and_short_circuit. Qed.
Print Assumptions C05_and_short_circuit.

(** a || b when a does not decide: b is evaluated (its calls are logged after a's)
    and the result is Ops.or_ of the two. *)
Theorem C05_or_evaluates_rhs : forall rs E d ca cb lg sva lg1 va lg2 svb lg3 vb lg4,
  pushes rs E d ca lg sva lg1 -> resolves rs E d sva lg1 va lg2 ->
  (is_err va = true \/ is_truthy va = false) ->
  pushes rs E d cb lg2 svb lg3 -> resolves rs E d svb lg3 vb lg4 ->
  forall st, exists f, loop rs f E d (or_code ca cb) O st lg = (ROk (SVal (or_ (tested va) vb) :: st), lg4).
Proof. exact or_evaluates_rhs. Qed.
Print Assumptions C05_or_evaluates_rhs.

Theorem C05_or_rhs_fails : forall rs E d ca cb lg sva lg1 va lg2 e lg3,
  pushes rs E d ca lg sva lg1 -> resolves rs E d sva lg1 va lg2 ->
  (is_err va = true \/ is_truthy va = false) ->
  fails rs E d cb lg2 e lg3 ->
  forall st, exists f, loop rs f E d (or_code ca cb) O st lg = (RErr e, lg3).
Proof. exact or_rhs_fails. Qed.
Print Assumptions C05_or_rhs_fails.

(** a && b when a is truthy (does not decide): b is evaluated and the result is Ops.and_ of true and b's value;
    a hard failure of b fails the whole expression *)
Theorem C05_and_evaluates_rhs : forall rs E d ca cb lg sva lg1 va lg2 svb lg3 vb lg4,
  pushes rs E d ca lg sva lg1 -> resolves rs E d sva lg1 va lg2 ->
  is_err va = false -> is_truthy va = true ->
  pushes rs E d cb lg2 svb lg3 -> resolves rs E d svb lg3 vb lg4 ->
  forall st, exists f, loop rs f E d (and_code ca cb) O st lg = (ROk (SVal (and_ (VBool true) vb) :: st), lg4).
Proof. exact and_evaluates_rhs. Qed.
Print Assumptions C05_and_evaluates_rhs.

Theorem C05_and_rhs_fails : forall rs E d ca cb lg sva lg1 va lg2 e lg3,
  pushes rs E d ca lg sva lg1 -> resolves rs E d sva lg1 va lg2 ->
  is_err va = false -> is_truthy va = true ->
  fails rs E d cb lg2 e lg3 ->
  forall st, exists f, loop rs f E d (and_code ca cb) O st lg = (RErr e, lg3).
Proof. exact and_rhs_fails. Qed.
Print Assumptions C05_and_rhs_fails.

(** || yields true when either side is truthy even if the other fails; otherwise a failing operand fails. *)
Theorem C05_or_spec : forall a b,
  or_ a b =
  if truthy_ok a || truthy_ok b then VBool true
  else if is_err a then a else if is_err b then b else VBool false.
Proof. exact or_spec. Qed.
Print Assumptions C05_or_spec.

Theorem C05_and_spec : forall a b,
  and_ a b = if is_err a then a else if is_err b then b else VBool (is_truthy a && is_truthy b).
Proof. exact and_spec. Qed.
Print Assumptions C05_and_spec.

(** c ? x : y evaluates exactly one branch, chosen by the truthiness of c ... *)
Theorem C05_ternary_true : forall rs E d cc ct cf lg sva lg1 va lg2 svt lg3,
  pushes rs E d cc lg sva lg1 -> resolves rs E d sva lg1 va lg2 ->
  is_err va = false -> is_truthy va = true ->
  pushes rs E d ct lg2 svt lg3 ->
  forall st, exists f, loop rs f E d (tern_code cc ct cf) O st lg = (ROk (svt :: st), lg3).
Proof. exact tern_true. Qed.
Print Assumptions C05_ternary_true.

Theorem C05_ternary_false : forall rs E d cc ct cf lg sva lg1 va lg2 svf lg3,
  pushes rs E d cc lg sva lg1 -> resolves rs E d sva lg1 va lg2 ->
  is_err va = false -> is_truthy va = false ->
  pushes rs E d cf lg2 svf lg3 ->
  forall st, exists f, loop rs f E d (tern_code cc ct cf) O st lg = (ROk (svf :: st), lg3).
Proof. exact tern_false. Qed.
Print Assumptions C05_ternary_false.

(** ... and fails when c fails (neither branch runs). *)
Theorem C05_ternary_cond_fails : forall rs E d cc ct cf lg sva lg1 e lg2,
  pushes rs E d cc lg sva lg1 -> resolves rs E d sva lg1 (VErr e) lg2 ->
  forall st, exists f, loop rs f E d (tern_code cc ct cf) O st lg = (ROk (SVal (VErr e) :: st), lg2).
Proof. exact tern_cond_fails. Qed.
Print Assumptions C05_ternary_cond_fails.

(** One truthiness: the table, and its use by !, TEST and bool(). *)
Theorem C05_truthy_table : forall v,
  is_truthy v =
  match v with
  | VInt i => negb (i =? 0) | VUInt u => negb (u =? 0)
  | VFloat f => match f with SpecFloat.S754_zero _ => false | _ => true end
  | VBool b => b
  | VString s => match s with [] => false | _ => true end
  | VBytes s => match s with [] => false | _ => true end
  | VList l => match l with [] => false | _ => true end
  | VMap m => match m with [] => false | _ => true end
  | VType _ | VTime _ | VDur _ => true
  | VNull | VErr _ | VIdent _ | VCode _ => false
  end.
Proof. exact truthy_table. Qed.
Print Assumptions C05_truthy_table.

Theorem C05_not_spec : forall a, not_ a = if is_err a then a else VBool (negb (is_truthy a)).
Proof. exact not_spec. Qed.
Print Assumptions C05_not_spec.

Theorem C05_test_is_truthiness : forall rs E d st lg sv v lg',
  resolves rs E d sv lg v lg' ->
  step rs E d ITest (sv :: st) lg = (ROk (None, SVal (tested v) :: st), lg').
Proof. exact step_test. Qed.
Print Assumptions C05_test_is_truthiness.

(** bool() is the same truthiness outside the recorded finding (the five spellings of false) ... *)
Theorem C05_bool_is_truthy_outside_known : forall now v,
  is_err v = false -> false_spelling v = false ->
  construct_type now #"bool" [v] = ROk (VBool (is_truthy v)).
Proof. exact bool_is_truthy_outside_known. Qed.
Print Assumptions C05_bool_is_truthy_outside_known.

(** ... and the full statement is false of the faithful model: bool('0') is the witness. *)
Theorem C05_bool_truthy_refuted : exists now v,
  is_err v = false /\ construct_type now #"bool" [v] <> ROk (VBool (is_truthy v)).
Proof. exact bool_truthy_refuted. Qed.
Print Assumptions C05_bool_truthy_refuted.

(** * Chains  a || b || c ...  and  a && b && c ...  as emitted: one end label shared by every link

    [chain_run] is the left fold with early exit: the accumulated value is tested; when it decides
    (true for ||; false or a failure for &&) the chain ends with it and nothing more runs, otherwise
    the next operand runs and the operator folds its value in. *)
Theorem C05_or_chain_evaluates : forall rs E d c1 cs lg sva lg1 va lg2 res lg3,
  pushes rs E d c1 lg sva lg1 -> resolves rs E d sva lg1 va lg2 -> cs <> [] ->
  chain_run rs E d true or_ va lg2 cs res lg3 ->
  forall st, exists f, loop rs f E d (or_chain_code c1 cs) O st lg = (ROk (SVal res :: st), lg3).
Proof. exact or_chain_evaluates. Qed.
Print Assumptions C05_or_chain_evaluates.

Theorem C05_and_chain_evaluates : forall rs E d c1 cs lg sva lg1 va lg2 res lg3,
  pushes rs E d c1 lg sva lg1 -> resolves rs E d sva lg1 va lg2 -> cs <> [] ->
  chain_run rs E d false and_ va lg2 cs res lg3 ->
  forall st, exists f, loop rs f E d (and_chain_code c1 cs) O st lg = (ROk (SVal res :: st), lg3).
Proof. exact and_chain_evaluates. Qed.
Print Assumptions C05_and_chain_evaluates.

(** nothing after the deciding operand runs: the rest of the chain is ANY code *)
Theorem C05_chain_stops_early : forall rs E d w op opf,
  (forall st, step rs E d op st = bin rs E d opf st) -> (forall a b, plainv (opf a b)) ->
  forall c1 c r lg sva lg1 va lg2,
  pushes rs E d c1 lg sva lg1 -> resolves rs E d sva lg1 va lg2 -> decides w (tested va) = true ->
  forall st, exists f, loop rs f E d (chain_code w op c1 (c :: r)) O st lg = (ROk (SVal (tested va) :: st), lg2).
Proof. exact chain_stops_early. Qed.
Print Assumptions C05_chain_stops_early.

(** the chain shape is the compiler's: a mixed chain compiles to exactly these blocks *)
Example C05_chain_shape :
  match compile_source 40 #"a || b || c && d && e" with
  | COk p _ => Some (pr_code p)
  | _ => None
  end = Some (or_chain_code [IPush (VIdent #"a")] [[IPush (VIdent #"b")];
               and_chain_code [IPush (VIdent #"c")] [[IPush (VIdent #"d")]; [IPush (VIdent #"e")]]]).
Proof. vm_compute. reflexivity. Qed.

(** * match, as emitted: the scrutinee is evaluated once, the patterns are tried in order, the arm of
    the first pattern that yields true runs; a pattern that yields false or fails is skipped; null when
    none matches.  Arms of skipped cases, and every case after the chosen one, are ANY code. *)
Theorem C05_match_evaluates : forall rs E d cc cs lg sv lg1 v lg2 res lg3,
  pushes rs E d cc lg sv lg1 -> resolves rs E d sv lg1 v lg2 -> plainv v -> cs <> [] ->
  match_run rs E d v lg2 cs res lg3 ->
  forall st, exists f, loop rs f E d (match_code cc cs) O st lg = (ROk (res :: st), lg3).
Proof. exact match_evaluates. Qed.
Print Assumptions C05_match_evaluates.

Theorem C05_match_first_hit : forall rs E d cc pb arm r lg sv lg1 v lg2 lg3 sva lg4,
  pushes rs E d cc lg sv lg1 -> resolves rs E d sv lg1 v lg2 -> plainv v ->
  pat_eval rs E d pb v lg2 (VBool true) lg3 -> pushes rs E d arm lg3 sva lg4 ->
  forall st, exists f, loop rs f E d (match_code cc ((pb, arm) :: r)) O st lg = (ROk (sva :: st), lg4).
Proof. exact match_first_hit. Qed.
Print Assumptions C05_match_first_hit.

(** the block shape is the compiler's *)
Example C05_match_shape :
  match compile_source 40 #"match x { case y: a, case int: b, case _: c }" with
  | COk p _ => Some (pr_code p)
  | _ => None
  end = Some (match_code [IPush (VIdent #"x")]
                [([IPush (VIdent #"y"); IEq], [IPush (VIdent #"a")]);
                 ([IPush (VIdent #"type"); ICall 1; IPush (VIdent #"int"); IEq], [IPush (VIdent #"b")]);
                 ([IPop; IPush (VBool true)], [IPush (VIdent #"c")])]).
Proof. vm_compute. reflexivity. Qed.

(** * The emitted code IS those blocks — for every expression, not only the examples above.
    Resolving the label code the compiler emits for a chain of two or more `||` (`&&`) operands gives
    [or_chain_code] ([and_chain_code]) of the resolved programs of the operands, compiled one after the
    other in source order; likewise `?:` gives [tern_code] and match gives [match_code].  Together with
    the block theorems above this settles laziness and absorption for every compiled program. *)
Theorem C05_or_compiles_to_chain : forall f e n cp n',
  c_cor f (c_expr f) e n = COk cp n' -> snd (cor_ops e) <> [] ->
  exists cph cpt ch cts,
    compiled_seq (c_cand f (c_expr f)) (S n) (fst (cor_ops e) :: snd (cor_ops e)) (cph :: cpt) n' /\
    resolve (bc_of cph) = Some ch /\ Forall2 (fun c code => resolve (bc_of c) = Some code) cpt cts /\
    resolve (bc_of cp) = Some (or_chain_code ch cts).
Proof. exact (fun f => or_compiles_to_chain f _ (CompileWf.c_expr_good f)). Qed.
Print Assumptions C05_or_compiles_to_chain.

Theorem C05_and_compiles_to_chain : forall f e n cp n',
  c_cand f (c_expr f) e n = COk cp n' -> snd (cand_ops e) <> [] ->
  exists cph cpt ch cts,
    compiled_seq (c_rel f (c_expr f)) (S n) (fst (cand_ops e) :: snd (cand_ops e)) (cph :: cpt) n' /\
    resolve (bc_of cph) = Some ch /\ Forall2 (fun c code => resolve (bc_of c) = Some code) cpt cts /\
    resolve (bc_of cp) = Some (and_chain_code ch cts).
Proof. exact (fun f => and_compiles_to_chain f _ (CompileWf.c_expr_good f)). Qed.
Print Assumptions C05_and_compiles_to_chain.

(** c ? t : e.  A condition that is not a compile-time constant: the conditional block.  A constant
    condition: the compiler chooses as the block would — a failure stays that failure, otherwise the
    truthiness of the constant selects the branch's program. *)
Theorem C05_ternary_compiles_to_block : forall f r c t e n cp n',
  c_expr (S f) (ETernary r c t e) n = COk cp n' ->
  exists cc ct cf n1 n2 n3,
    c_cor f (c_expr f) c n = COk cc n1 /\ c_cor f (c_expr f) t n1 = COk ct n2 /\ c_expr f e n2 = COk cf n3 /\
    match cp_node cc with
    | NConst v => cp_node cp = if is_err v then NConst v else if is_truthy v then cp_node ct else cp_node cf
    | NBytecode _ =>
        exists c1 c2 c3, resolve (bc_of cc) = Some c1 /\ resolve (bc_of ct) = Some c2 /\ resolve (bc_of cf) = Some c3 /\
                         resolve (bc_of cp) = Some (tern_code c1 c2 c3)
    end.
Proof. exact (fun f => ternary_compiles_to_block f _ (CompileWf.c_expr_good f)). Qed.
Print Assumptions C05_ternary_compiles_to_block.

Theorem C05_match_compiles_to_block : forall f r c cases n cp n',
  c_expr (S f) (EMatch r c cases) n = COk cp n' ->
  exists cc n1 cps n2 c0 cs,
    c_expr f c n = COk cc n1 /\ compiled_cases f (c_expr f) n1 cases cps n2 /\
    resolve (bc_of cc) = Some c0 /\
    Forall2 (fun pc co => resolve (fst pc) = Some (fst co) /\ resolve (bc_of (snd pc)) = Some (snd co)) cps cs /\
    resolve (bc_of cp) = Some (match_code c0 cs).
Proof. exact (fun f => match_compiles_to_block f _ (CompileWf.c_expr_good f)). Qed.
Print Assumptions C05_match_compiles_to_block.

(** both halves in one statement, for `||` *)
Theorem C05_or_program_evaluates : forall f e n cp n',
  c_cor f (c_expr f) e n = COk cp n' -> snd (cor_ops e) <> [] ->
  exists code ch cts, resolve (bc_of cp) = Some code /\ length cts = length (snd (cor_ops e)) /\
    forall rs E d lg sva lg1 va lg2 res lg3,
      pushes rs E d ch lg sva lg1 -> resolves rs E d sva lg1 va lg2 ->
      chain_run rs E d true or_ va lg2 cts res lg3 ->
      forall st, exists fu, loop rs fu E d code O st lg = (ROk (SVal res :: st), lg3).
Proof. exact or_program_evaluates. Qed.
Print Assumptions C05_or_program_evaluates.

(** the premises are met by parsed source: a three-operand chain has two links *)
Example C05_compiles_to_chain_somewhere :
  match parse_program 40 #"a || b || c" with
  | POk (EUnary _ c) _ =>
      match c_cor 39 (c_expr 39) c O with COk _ _ => Some (length (snd (cor_ops c))) | _ => None end
  | _ => None
  end = Some 2%nat.
Proof. vm_compute. reflexivity. Qed.
