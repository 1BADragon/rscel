(* Props/C06.v — Collections: literals, indexing (incl. negative), membership, concat, size. *)
From Coq Require Import ZArith List Bool.
From Rscel Require Import Base.Prims Base.Text Model.Value Model.Ops Model.Funcs Model.Interp Model.Compile.
From Rscel Require Import Proofs.OpsArith Proofs.OpsColl.
Import ListNotations.
Import Coq.Strings.String.StringSyntax.
Open Scope Z_scope.

(** l[i]: element i for 0 <= i < size, element size+i for -size <= i < 0, error otherwise. *)
Theorem C06_index_list_int : forall l i,
  let j := if i <? 0 then zlen l + i else i in
  index (VList l) (VInt i) =
    if (0 <=? j) && (j <? zlen l)
    then match nth_error l (Z.to_nat j) with Some v => v | None => VErr EValue end
    else VErr EValue.
Proof. exact index_list_int. Qed.
Print Assumptions C06_index_list_int.

Theorem C06_index_list_uint : forall l i,
  index (VList l) (VUInt i) =
    if (0 <=? i) && (i <? zlen l)
    then match nth_error l (Z.to_nat i) with Some v => v | None => VErr EValue end
    else VErr EValue.
Proof. exact index_list_uint. Qed.
Print Assumptions C06_index_list_uint.

(** within the range the element exists: the [None] branch above is never taken *)
Theorem C06_index_in_range_has_element : forall (l : list value) j,
  0 <= j < zlen l -> exists v, nth_error l (Z.to_nat j) = Some v.
Proof. exact (@nth_error_in_range value). Qed.
Print Assumptions C06_index_in_range_has_element.

Theorem C06_index_list_non_integer_is_error : forall l k,
  match k with VInt _ | VUInt _ | VErr _ => True | _ => index (VList l) k = VErr EValue end.
Proof. exact index_list_other_is_error. Qed.
Print Assumptions C06_index_list_non_integer_is_error.

Theorem C06_index_map : forall m k,
  index (VMap m) (VString k) = match map_get m k with Some v => v | None => VErr (EAttribute k) end /\
  access (VMap m) k = match map_get m k with Some v => v | None => VErr (EAttribute k) end.
Proof. exact index_map. Qed.
Print Assumptions C06_index_map.

Theorem C06_index_map_other_key_is_error : forall m k,
  match k with VString _ | VErr _ => True | _ => index (VMap m) k = VErr EValue end.
Proof. exact index_map_other_is_error. Qed.
Print Assumptions C06_index_map_other_key_is_error.

Theorem C06_index_non_collection_is_error : forall o k,
  is_err o = false -> is_err k = false ->
  match o with VList _ | VMap _ => True | _ => index o k = VErr EValue end.
Proof. exact index_non_collection_is_error. Qed.
Print Assumptions C06_index_non_collection_is_error.

Theorem C06_in_spec : forall a b, is_err a = false -> is_err b = false ->
  in_ a b =
    match b with
    | VList l => VBool (existsb (fun v => peq a v) l)
    | VMap m => match a with
                | VString k => VBool (match map_get m k with Some _ => true | None => false end)
                | _ => VErr EInvalidOp end
    | VString s => match a with VString n => VBool (contains n s) | _ => VErr EInvalidOp end
    | _ => VErr EInvalidOp
    end.
Proof. exact in_spec. Qed.
Print Assumptions C06_in_spec.

Theorem C06_contains_is_substring : forall n s,
  contains n s = true <-> exists pre post, s = pre ++ n ++ post.
Proof. exact Proofs.Strings.contains_spec. Qed.
Print Assumptions C06_contains_is_substring.

Theorem C06_concat_spec :
  (forall x y, add (VString x) (VString y) = VString (x ++ y)) /\
  (forall x y, add (VBytes x) (VBytes y) = VBytes (x ++ y)) /\
  (forall x y, add (VList x) (VList y) = VList (x ++ y)).
Proof. exact concat_spec. Qed.
Print Assumptions C06_concat_spec.

Theorem C06_size_spec : forall now s l,
  call_default now #"size" VNull [VString s] = Some (ROk (VUInt (zlen s))) /\
  call_default now #"size" (VString s) [] = Some (ROk (VUInt (zlen s))) /\
  call_default now #"size" VNull [VBytes s] = Some (ROk (VUInt (zlen s))) /\
  call_default now #"size" (VBytes s) [] = Some (ROk (VUInt (zlen s))) /\
  call_default now #"size" VNull [VList l] = Some (ROk (VUInt (zlen l))) /\
  call_default now #"size" (VList l) [] = Some (ROk (VUInt (zlen l))).
Proof. exact size_spec. Qed.
Print Assumptions C06_size_spec.

(** strings are UTF-8: the size of a string value is the length of its encoding *)
Theorem C06_string_size_is_utf8_length : forall now cs,
  call_default now #"size" VNull [VString (utf8_encode cs)] = Some (ROk (VUInt (zlen (utf8_encode cs)))).
Proof. intros. apply size_spec. exact []. Qed.
Print Assumptions C06_string_size_is_utf8_length.

Theorem C06_list_literal_elements_in_order : forall rs E d vs st lg,
  Forall not_ident vs ->
  step rs E d (IMkList (zlen vs)) (map SVal (rev vs) ++ st) lg = (ROk (None, SVal (VList vs) :: st), lg).
Proof. exact mklist_spec. Qed.
Print Assumptions C06_list_literal_elements_in_order.

(** For a repeated key the last entry wins, in the VM ... *)
Theorem C06_mkdict_is_build_map : forall rs E d pairs st lg,
  Forall (fun kv => not_ident (snd kv)) pairs ->
  step rs E d (IMkDict (zlen pairs)) (dict_stack (rev pairs) ++ st) lg =
    (ROk (None, SVal (VMap (build_map pairs)) :: st), lg).
Proof. exact mkdict_spec. Qed.
Print Assumptions C06_mkdict_is_build_map.

Theorem C06_map_literal_last_wins : forall pairs k,
  map_get (build_map pairs) k = last_entry pairs k None /\ smap (build_map pairs).
Proof. exact map_literal_last_wins. Qed.
Print Assumptions C06_map_literal_last_wins.

(** ... and identically when the compiler folds the literal. *)
Theorem C06_folded_map_literal_is_build_map : forall pairs,
  const_map (interleave pairs) [] = VMap (build_map pairs).
Proof. intros. apply const_map_is_build_map. Qed.
Print Assumptions C06_folded_map_literal_is_build_map.

Example C06_witness :
  index (VList [VInt 10; VInt 20; VInt 30]) (VInt (-1)) = VInt 30 /\
  index (VList [VInt 10; VInt 20; VInt 30]) (VInt (-4)) = VErr EValue /\
  index (VList [VInt 10]) (VUInt 18446744073709551615) = VErr EValue /\
  build_map [([97], VInt 1); ([98], VInt 5); ([97], VInt 2)] = [([97], VInt 2); ([98], VInt 5)].
Proof. vm_compute. repeat split. Qed.
