(* Props/C04.v — Equality and ordering obey their laws; sort/min/max agree with them. *)
From Coq Require Import ZArith List Bool Sorting.Permutation Sorting.Sorted.
From Flocq Require Import IEEE754.BinarySingleNaN.
From Coq Require Import Floats.SpecFloat.
From Rscel Require Import Base.Prims Base.F64 Model.Value Model.Ops Model.Funcs Spec.Wf.
From Rscel Require Import Proofs.F64Facts Proofs.OpsOrder Proofs.EqMaps Proofs.EqSym.
Import ListNotations.
Open Scope Z_scope.

Theorem C04_neq_is_not_eq : forall a b,
  neq a b = match eq_ a b with VBool r => VBool (negb r) | o => o end.
Proof. exact neq_is_not_eq. Qed.
Print Assumptions C04_neq_is_not_eq.

(** == is reflexive on values without NaN (scalars and nested lists; maps: see DESIGN, partial). *)
Theorem C04_eq_refl_partial : forall n v,
  (vsize v < n)%nat -> wf v = true -> plain v = true -> eq_ v v = VBool true.
Proof. exact eq_refl_plain. Qed.
Print Assumptions C04_eq_refl_partial.

(** == is reflexive on every NaN-free data value: scalars, lists and maps, nested to any depth. *)
Theorem C04_eq_refl_data : forall n v,
  (vsize v < n)%nat -> wf v = true -> data v = true -> eq_ v v = VBool true.
Proof. exact eq_refl_data. Qed.
Print Assumptions C04_eq_refl_data.

(** == is symmetric on scalar operands of any two types (collections: partial). *)
Theorem C04_eq_sym_partial : forall a b,
  wf a = true -> wf b = true -> scalar a = true -> scalar b = true -> eq_ a b = eq_ b a.
Proof. exact eq_sym_scalar. Qed.
Print Assumptions C04_eq_sym_partial.

(** == is symmetric on all error-free data: scalars of any two types, lists and maps, nested to any depth
    (NaN included; an error value inside a collection is returned as found, so the two orders may report
    different errors: that is why the statement is about error-free values). *)
Theorem C04_eq_sym_data : forall n a b, (vsize a < n)%nat ->
  wf a = true -> wf b = true -> pure a = true -> pure b = true -> eq_ a b = eq_ b a.
Proof. exact eq_sym_pure. Qed.
Print Assumptions C04_eq_sym_data.

Theorem C04_int_uint_eq_iff_same_number : forall x y,
  in_i64 x = true -> in_u64 y = true ->
  eq_ (VInt x) (VUInt y) = VBool (x =? y) /\ eq_ (VUInt y) (VInt x) = VBool (y =? x).
Proof. exact int_uint_eq_iff_same_number. Qed.
Print Assumptions C04_int_uint_eq_iff_same_number.

Theorem C04_int_double_eq_nearest : forall x f,
  eq_ (VInt x) (VFloat f) = VBool (f64_eqb (f64_of_Z x) f) /\
  eq_ (VFloat f) (VInt x) = VBool (f64_eqb f (f64_of_Z x)) /\
  eq_ (VUInt x) (VFloat f) = VBool (f64_eqb (f64_of_Z x) f).
Proof. exact int_double_eq_nearest. Qed.
Print Assumptions C04_int_double_eq_nearest.

(** Exactly one of a<b, a==b, a>b on a comparable pair; <= and >= are the unions. *)
Theorem C04_ord_trichotomy : forall a b c,
  wf a = true -> wf b = true ->
  ord a b = inl (Some c) ->
  lt a b = VBool (is_c c Lt) /\ eq_ a b = VBool (is_c c Eq) /\ gt a b = VBool (is_c c Gt) /\
  le a b = VBool (is_c c Lt || is_c c Eq) /\ ge a b = VBool (is_c c Gt || is_c c Eq).
Proof. exact ord_trichotomy. Qed.
Print Assumptions C04_ord_trichotomy.

(** Comparing values of unrelated types is an error; within a class every pair is comparable. *)
Theorem C04_ord_classes : forall a b,
  match class_of a, class_of b with
  | Some ka, Some kb => if cclass_eqb ka kb then exists c, ord a b = inl c else ord a b = inr EInvalidOp
  | _, _ => ord a b = inr EInvalidOp
  end.
Proof. exact ord_classes. Qed.
Print Assumptions C04_ord_classes.

(** int and uint jointly: the order is the order of the integers they denote
    (hence reflexive, antisymmetric, transitive and total). *)
Theorem C04_ord_int_uint_is_numeric_order : forall a b x y,
  wf a = true -> wf b = true -> iu_val a = Some x -> iu_val b = Some y ->
  ord a b = inl (Some (x ?= y)).
Proof. exact ord_int_uint_is_numeric_order. Qed.
Print Assumptions C04_ord_int_uint_is_numeric_order.

Theorem C04_ord_string_bytes : forall x y,
  ord (VString x) (VString y) = inl (Some (bytes_cmp x y)) /\
  ord (VBytes x) (VBytes y) = inl (Some (bytes_cmp x y)).
Proof. exact ord_string_bytes. Qed.
Print Assumptions C04_ord_string_bytes.

Theorem C04_bytes_cmp_total_order :
  (forall a, bytes_cmp a a = Eq) /\
  (forall a b, bytes_cmp a b = Eq -> a = b) /\
  (forall a b, bytes_cmp b a = CompOpp (bytes_cmp a b)) /\
  (forall a b c, bytes_cmp a b = Lt -> bytes_cmp b c = Lt -> bytes_cmp a c = Lt).
Proof. exact bytes_cmp_total_order. Qed.
Print Assumptions C04_bytes_cmp_total_order.

Theorem C04_ord_bool_time_dur : forall (p q : bool) (x y : Z),
  ord (VBool p) (VBool q) = inl (Some (b2z p ?= b2z q)) /\
  ord (VTime x) (VTime y) = inl (Some (x ?= y)) /\
  ord (VDur x) (VDur y) = inl (Some (x ?= y)).
Proof. exact ord_bool_time_dur. Qed.
Print Assumptions C04_ord_bool_time_dur.

(** doubles: Flocq's comparison = the order of the reals on finite operands (partial: infinities). *)
Theorem C04_ord_double_is_real_order_partial : forall f1 f2 : binary_float 53 1024,
  ord (VFloat (B2SF f1)) (VFloat (B2SF f2)) = inl (Bcompare f1 f2) /\
  (is_finite f1 = true -> is_finite f2 = true ->
   Bcompare f1 f2 = Some (Raux.Rcompare (B2R f1) (B2R f2))).
Proof. exact ord_double_is_real_order. Qed.
Print Assumptions C04_ord_double_is_real_order_partial.

(** sort returns a permutation, ordered whenever the elements are mutually comparable. *)
Theorem C04_sort_is_permutation : forall l l',
  sort_impl l = ROk (VList l') -> Permutation l l'.
Proof. exact sort_is_permutation. Qed.
Print Assumptions C04_sort_is_permutation.

Theorem C04_sort_is_sorted : forall l l',
  total_preorder_on l -> sort_impl l = ROk (VList l') -> Sorted le_v l'.
Proof. exact sort_is_sorted. Qed.
Print Assumptions C04_sort_is_sorted.

Theorem C04_int_uint_lists_are_totally_preordered : forall l,
  (forall v, In v l -> wf v = true /\ exists z, iu_val v = Some z) -> total_preorder_on l.
Proof. exact iu_total_preorder. Qed.
Print Assumptions C04_int_uint_lists_are_totally_preordered.

Theorem C04_min_max_is_argument : forall args m,
  (min_impl args = ROk m \/ max_impl args = ROk m) -> args <> [] -> In m args.
Proof. exact min_max_is_argument. Qed.
Print Assumptions C04_min_max_is_argument.

Example C04_witness :
  sort_impl [VInt 3; VUInt 1; VInt 2; VUInt 18446744073709551615; VInt (-1)] =
    ROk (VList [VInt (-1); VUInt 1; VInt 2; VInt 3; VUInt 18446744073709551615]) /\
  eq_ (VUInt 18446744073709551615) (VInt (-1)) = VBool false /\
  lt (VInt (-1)) (VUInt 18446744073709551615) = VBool true /\
  ord (VString [97]) (VInt 1) = inr EInvalidOp.
Proof. vm_compute. repeat split. Qed.

(** min / max return the FIRST least / greatest argument: whenever the comparison used is the strict
    order induced by a rank on the arguments, the scan returns the first argument of best rank ... *)
Theorem C04_pick_first_best : forall better rank rest cur,
  (forall a b, In a (cur :: rest) -> In b (cur :: rest) -> better a b = (rank a <? rank b)) ->
  let m := pick better cur rest in
  (forall v, In v (cur :: rest) -> rank m <= rank v) /\
  exists pre post, cur :: rest = pre ++ m :: post /\ forall v, In v pre -> rank m < rank v.
Proof. exact pick_first_best. Qed.
Print Assumptions C04_pick_first_best.

(** ... instantiated for integer arguments *)
Theorem C04_min_ints_first_least : forall z zs,
  exists m pre post, min_impl (map VInt (z :: zs)) = ROk (VInt m) /\ z :: zs = pre ++ m :: post /\
    (forall v, In v (z :: zs) -> m <= v) /\ (forall v, In v pre -> m < v).
Proof. exact min_ints_first_least. Qed.
Print Assumptions C04_min_ints_first_least.

Theorem C04_max_ints_first_greatest : forall z zs,
  exists m pre post, max_impl (map VInt (z :: zs)) = ROk (VInt m) /\ z :: zs = pre ++ m :: post /\
    (forall v, In v (z :: zs) -> v <= m) /\ (forall v, In v pre -> v < m).
Proof. exact max_ints_first_greatest. Qed.
Print Assumptions C04_max_ints_first_greatest.

(** the infinities are the ends of the order of doubles: every double that is not a NaN lies strictly
    between them (stated on the stored representation, no real numbers involved) *)
Theorem C04_ord_double_infinities : forall x : f64, f64_is_nan x = false ->
  (x <> S754_infinity false -> ord (VFloat x) (VFloat (S754_infinity false)) = inl (Some Lt) /\
                               ord (VFloat (S754_infinity false)) (VFloat x) = inl (Some Gt)) /\
  (x <> S754_infinity true -> ord (VFloat (S754_infinity true)) (VFloat x) = inl (Some Lt) /\
                              ord (VFloat x) (VFloat (S754_infinity true)) = inl (Some Gt)) /\
  ord (VFloat (S754_infinity false)) (VFloat (S754_infinity false)) = inl (Some Eq) /\
  ord (VFloat (S754_infinity true)) (VFloat (S754_infinity true)) = inl (Some Eq).
Proof. exact ord_double_infinities. Qed.
Print Assumptions C04_ord_double_infinities.

Theorem C04_lt_infinities : forall x : f64, f64_is_nan x = false -> x <> S754_infinity false -> x <> S754_infinity true ->
  lt (VFloat (S754_infinity true)) (VFloat x) = VBool true /\ lt (VFloat x) (VFloat (S754_infinity false)) = VBool true /\
  gt (VFloat x) (VFloat (S754_infinity false)) = VBool false /\ lt (VFloat x) (VFloat (S754_infinity true)) = VBool false.
Proof. exact lt_infinities. Qed.
Print Assumptions C04_lt_infinities.
