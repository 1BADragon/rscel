(* Proofs/Time.v — C16: the civil calendar is the inverse of the day count for
   every day (arithmetic on one 400-year era, lifted by periodicity), field
   ranges, duration parts, time arithmetic laws, zone-less = UTC. *)
From Coq Require Import ZArith List Bool Lia.
From Rscel Require Import Base.Prims Base.F64 Base.Text Model.Value Model.Ops Model.Time.
Import ListNotations.
Open Scope Z_scope.

(** the fields of day number doe of era 0 *)
Definition civil_doe (doe : Z) : Z * Z * Z :=
  let yoe := yoe_of doe in
  let doy := doy_of doe in
  let mp := mp_of doy in
  let d := doy - (153 * mp + 2) / 5 + 1 in
  let m := if mp <? 10 then mp + 3 else mp - 9 in
  (yoe + (if m <=? 2 then 1 else 0), m, d).

Definition days_in_month (y m : Z) : Z :=
  if m =? 2 then (if ((y mod 4 =? 0) && negb (y mod 100 =? 0)) || (y mod 400 =? 0) then 29 else 28)
  else if (m =? 4) || (m =? 6) || (m =? 9) || (m =? 11) then 30 else 31.

(** The era starts on 1 March, so its year [y] ends with the February of civil year [y + 1]:
    day 365 exists exactly when that year is a leap year.  The divisions are linear facts
    about quotients and remainders, which [lia] decides. *)
Lemma year_of_era doe : 0 <= doe < 146097 ->
  let y := yoe_of doe in let doy := doy_of doe in
  0 <= y <= 399 /\ 0 <= doy /\
  (doy <= 364 \/ doy = 365 /\ ((y + 1) mod 4 = 0 /\ (y + 1) mod 100 <> 0 \/ (y + 1) mod 400 = 0)).
Proof. intros H. unfold doy_of, yoe_of. cbv zeta. Z.div_mod_to_equations. lia. Qed.

(** Month [mp] counts from March; month 11 (February) takes what is left of the year. *)
Lemma month_of_year doy : 0 <= doy <= 365 ->
  let mp := mp_of doy in let d := doy - (153 * mp + 2) / 5 + 1 in let m := if mp <? 10 then mp + 3 else mp - 9 in
  1 <= m <= 12 /\ (if 2 <? m then m - 3 else m + 9) = mp /\ 1 <= d /\
  (if m =? 2 then d = doy - 336 else d <= days_in_month 0 m).
Proof.
  intros H. unfold mp_of. cbv zeta.
  pose proof (Z.div_mod (5 * doy + 2) 153 ltac:(lia)) as D.
  pose proof (Z.mod_pos_bound (5 * doy + 2) 153 ltac:(lia)) as B.
  revert D B. generalize ((5 * doy + 2) mod 153) as r, ((5 * doy + 2) / 153) as mp. intros r mp D B.
  assert (C : mp = 0 \/ mp = 1 \/ mp = 2 \/ mp = 3 \/ mp = 4 \/ mp = 5 \/ mp = 6 \/ mp = 7 \/ mp = 8 \/
              mp = 9 \/ mp = 10 \/ mp = 11) by lia.
  repeat destruct C as [->|C]; try subst mp; cbn; lia.
Qed.

Theorem every_day_of_the_era doe : 0 <= doe < 146097 ->
  let '(y, m, d) := civil_doe doe in
  days_from_civil y m d = doe - 719468 /\ 1 <= m <= 12 /\ 1 <= d <= days_in_month y m.
Proof.
  intros H. destruct (year_of_era doe H) as (Y & D0 & D1). unfold civil_doe. cbv zeta.
  destruct (month_of_year (doy_of doe) ltac:(lia)) as (M & Mp & D2 & D3). cbv zeta in *.
  set (mp := mp_of (doy_of doe)) in *. set (m := if mp <? 10 then mp + 3 else mp - 9) in *.
  set (d := doy_of doe - (153 * mp + 2) / 5 + 1) in *.
  split; [|split; [exact M|split; [exact D2|]]].
  - unfold days_from_civil. cbv zeta. rewrite Mp.
    replace (if m <=? 2 then _ - 1 else _) with (yoe_of doe) by (destruct (m <=? 2); lia).
    rewrite (Z.div_small (yoe_of doe) 400), (Z.mod_small (yoe_of doe) 400) by lia.
    unfold d, doy_of. cbv zeta. ring.
  - unfold days_in_month in *. destruct (Z.eqb_spec m 2) as [E|E]; [|exact D3].
    rewrite E. cbn [Z.leb Z.compare].
    destruct D1 as [D1|[D1 L]]; [destruct (_ || _); lia|].
    replace (_ || _) with true; [lia|].
    symmetry. apply orb_true_iff. rewrite andb_true_iff, negb_true_iff, Z.eqb_neq, !Z.eqb_eq. exact L.
Qed.

Lemma civil_from_days_era z :
  civil_from_days z =
  let '(y, m, d) := civil_doe ((z + 719468) mod 146097) in (y + (z + 719468) / 146097 * 400, m, d).
Proof.
  unfold civil_from_days, civil_doe. cbv zeta. set (doe := (z + 719468) mod 146097).
  destruct (mp_of (doy_of doe) <? 10); cbv beta iota zeta;
    match goal with |- context [if ?c then 1 else 0] => destruct c end; f_equal; f_equal; lia.
Qed.

Lemma days_from_civil_shift y m d k : days_from_civil (y + k * 400) m d = days_from_civil y m d + k * 146097.
Proof. unfold days_from_civil. cbv zeta. destruct (m <=? 2); Z.div_mod_to_equations; lia. Qed.

Lemma days_in_month_shift y m k : days_in_month (y + k * 400) m = days_in_month y m.
Proof.
  unfold days_in_month. destruct (m =? 2); [|reflexivity].
  replace ((y + k * 400) mod 4) with (y mod 4) by (Z.div_mod_to_equations; lia).
  replace ((y + k * 400) mod 100) with (y mod 100) by (Z.div_mod_to_equations; lia).
  rewrite Z.mod_add by lia. reflexivity.
Qed.

(** Every day, of any era: the calendar repeats every 146097 days = 400 years. *)
Theorem civil_day z : let '(y, m, d) := civil_from_days z in
  days_from_civil y m d = z /\ 1 <= m <= 12 /\ 1 <= d <= days_in_month y m.
Proof.
  rewrite civil_from_days_era.
  pose proof (every_day_of_the_era ((z + 719468) mod 146097) ltac:(apply Z.mod_pos_bound; lia)) as Ok.
  destruct (civil_doe _) as [[y m] d]. destruct Ok as (Ok & Hm & Hd).
  rewrite days_from_civil_shift, days_in_month_shift, Ok.
  split; [Z.div_mod_to_equations; lia|split; assumption].
Qed.

(** the day count of the civil date of a day is that day: for EVERY day *)
Theorem civil_roundtrip z : let '(y, m, d) := civil_from_days z in days_from_civil y m d = z.
Proof. pose proof (civil_day z) as H. destruct (civil_from_days z) as [[y m] d]. apply H. Qed.

(** month 1..12, day 1..length of that month (leap years by the Gregorian rule) *)
Theorem civil_fields_in_range z : let '(y, m, d) := civil_from_days z in 1 <= m <= 12 /\ 1 <= d <= days_in_month y m.
Proof. pose proof (civil_day z) as H. destruct (civil_from_days z) as [[y m] d]. apply H. Qed.

Theorem time_of_day_ranges ns :
  0 <= t_hour ns < 24 /\ 0 <= t_minute ns < 60 /\ 0 <= t_second ns < 60 /\ 0 <= t_millis ns < 1000 /\
  0 <= t_weekday_from_sunday ns < 7.
Proof.
  unfold t_hour, t_minute, t_second, t_millis, t_weekday_from_sunday, sod_of, ns_per_s.
  Z.div_mod_to_equations. lia.
Qed.

(** the instant is recovered from its fields *)
Theorem instant_from_fields ns :
  ns = ((days_of ns * 86400 + t_hour ns * 3600 + t_minute ns * 60 + t_second ns) * ns_per_s) + ns mod ns_per_s.
Proof.
  unfold t_hour, t_minute, t_second, days_of, sod_of, secs_of, ns_per_s. Z.div_mod_to_equations. lia.
Qed.

(** seven days later is the same week day *)
Theorem weekday_periodic ns : t_weekday_from_sunday (ns + 7 * 86400 * ns_per_s) = t_weekday_from_sunday ns.
Proof. unfold t_weekday_from_sunday, days_of, secs_of, ns_per_s. Z.div_mod_to_equations. lia. Qed.

(** 1970-01-01T00:00:00Z: a Thursday, day 0 of the year, month 0, date 1 *)
Example epoch_fields :
  t_year 0 = 1970 /\ t_month0 0 = 0 /\ t_day 0 = 1 /\ t_ordinal0 0 = 0 /\ t_weekday_from_sunday 0 = 4 /\
  t_year (-1) = 1969 /\ t_month0 (-1) = 11 /\ t_day (-1) = 31 /\ t_hour (-1) = 23 /\ t_millis (-1) = 999.
Proof. vm_compute. repeat split. Qed.

Theorem duration_parts ns :
  ns = d_seconds ns * ns_per_s + Z.rem ns ns_per_s /\ Z.abs (d_millis ns) < 1000 /\
  d_minutes ns = Z.quot (d_seconds ns) 60 /\ d_hours ns = Z.quot (d_seconds ns) 3600.
Proof.
  unfold d_seconds, d_millis, d_minutes, d_hours, ns_per_s. rewrite !Z.quot_quot by lia.
  repeat split; Z.quot_rem_to_equations; lia.
Qed.

Theorem time_plus_minus t d : in_time t = true -> in_time (t + d) = true ->
  sub (add (VTime t) (VDur d)) (VDur d) = VTime t.
Proof.
  intros Ht Htd. cbn. unfold checked_time. rewrite Htd. cbn. unfold checked_time.
  replace (t + d - d) with t by lia. rewrite Ht. reflexivity.
Qed.

Theorem time_minus_plus t1 t2 : in_time t1 = true -> add (sub (VTime t1) (VTime t2)) (VTime t2) = VTime t1.
Proof. intros H. cbn. unfold checked_time. replace (t2 + (t1 - t2)) with t1 by lia. rewrite H. reflexivity. Qed.

Theorem dur_plus_minus d1 d2 : in_dur d1 = true -> in_dur (d1 + d2) = true ->
  sub (add (VDur d1) (VDur d2)) (VDur d2) = VDur d1.
Proof.
  intros H1 H12. cbn. unfold checked_dur. rewrite H12. cbn. unfold checked_dur.
  replace (d1 + d2 - d2) with d1 by lia. rewrite H1. reflexivity.
Qed.

Theorem time_out_of_range_is_error t d : in_time (t + d) = false -> add (VTime t) (VDur d) = VErr EValue.
Proof. intros H. cbn. unfold checked_time. rewrite H. reflexivity. Qed.

Theorem time_order_is_chronological x y : ord (VTime x) (VTime y) = inl (Some (x ?= y)).
Proof. reflexivity. Qed.

(** the form with zone "UTC" (or any alias) reads the same instant as the zone-less form;
    only getDayOfWeek differs, by the one-based numbering of the zoned form (recorded finding) *)
Theorem zoneless_is_utc a ns : time_field a true (ns + 0 * 3600 * 1000000000) =
  time_field a false ns + (match a with TADayOfWeek => 1 | _ => 0 end).
Proof. replace (ns + 0 * 3600 * 1000000000) with ns by lia. destruct a; cbn [time_field]; lia. Qed.

Theorem utc_aliases_have_offset_zero : Forall (fun z => fixed_offset_hours z = Some 0) utc_aliases.
Proof. unfold utc_aliases. repeat (apply Forall_cons; [vm_compute; reflexivity|]). apply Forall_nil. Qed.

Theorem fixed_zone_is_shift a h ns : time_field a true (ns + h * 3600 * 1000000000) = time_field a true ((ns + h * 3600 * 1000000000)).
Proof. reflexivity. Qed.
