(* Proofs/MatchBlock.v — C05: match as the compiler emits it.  The scrutinee is evaluated once; the
   patterns are tried in order; the arm of the first pattern that yields true runs and its value is the
   result; a pattern that yields false or fails is skipped (its failure never surfaces); when none
   matches the result is null; the arms of skipped cases and everything after the chosen arm never run. *)
From Coq Require Import ZArith List Bool Lia Arith.
From Rscel Require Import Base.Prims Base.F64 Base.Text Model.Value Model.Ops Model.Dispatch Model.Funcs
     Model.Interp Spec.WfCode Proofs.VM Proofs.Blocks.
Import ListNotations.
Open Scope Z_scope.

Section Match.
  Variable rs : runner.
  Variable E : env.
  Variable d : nat.

  (** one case: duplicate the scrutinee, test it, skip the arm or run it and leave *)
  Fixpoint cases_code (cs : list (code * code)) : code :=
    match cs with
    | [] => []
    | (pb, arm) :: r =>
        [IDup] ++ pb ++ [IJmpCond false (Z.of_nat (length arm + 2)); IPop] ++ arm ++
        [IJmp (Z.of_nat (length (cases_code r) + 2))] ++ cases_code r
    end.
  Definition tail_code : code := [IPop; IPush VNull].
  Definition match_code (cc : code) (cs : list (code * code)) : code := cc ++ cases_code cs ++ tail_code.

  (** a pattern's code turns the (duplicated) scrutinee value into its verdict *)
  Definition pat_eval (pb : code) (v : value) (lg : log) (bv : value) (lg' : log) : Prop :=
    closed pb /\ forall st, exists f, loop rs f E d pb O (SVal v :: st) lg = (ROk (SVal bv :: st), lg').

  Inductive match_run (v : value) : log -> list (code * code) -> sval -> log -> Prop :=
  | mr_none lg : match_run v lg [] (SVal VNull) lg
  | mr_hit lg pb arm r lg1 sva lg2 :
      pat_eval pb v lg (VBool true) lg1 -> pushes rs E d arm lg1 sva lg2 ->
      match_run v lg ((pb, arm) :: r) sva lg2
  | mr_miss lg pb arm r bv lg1 res lg2 :
      pat_eval pb v lg bv lg1 -> (bv = VBool false \/ exists e, bv = VErr e) ->
      match_run v lg1 r res lg2 ->
      match_run v lg ((pb, arm) :: r) res lg2.

  Lemma case_head pb arm r v sv lg0 lg bv lg1 st res :
    resolves rs E d sv lg0 v lg -> pat_eval pb v lg bv lg1 ->
    yields rs E d (IJmpCond false (Z.of_nat (length arm + 2)) :: IPop :: arm ++
                   IJmp (Z.of_nat (length (cases_code r) + 2)) :: cases_code r ++ tail_code)
           (SVal bv :: SVal v :: st) lg1 res ->
    yields rs E d (cases_code ((pb, arm) :: r) ++ tail_code) (sv :: st) lg0 res.
  Proof.
    intros Hr [Hcp Hpp] H. cbn [cases_code]. rewrite <- !app_assoc. cbn [app].
    apply yields_cons with (1 := step_dup rs E d sv st lg0 v lg Hr).
    destruct (Hpp (SVal v :: st)) as [f Hf].
    apply yields_app with (1 := closed_yields rs E d pb f _ lg _ Hcp Hf ltac:(discriminate)). exact H.
  Qed.

  Lemma cases_run v : forall lg cs res lg', match_run v lg cs res lg' -> plainv v ->
    forall sv lg0 st, resolves rs E d sv lg0 v lg ->
      yields rs E d (cases_code cs ++ tail_code) (sv :: st) lg0 (ROk (res :: st), lg').
  Proof.
    induction 1 as [lg|lg pb arm r lg1 sva lg2 Hpat Harm|lg pb arm r bv lg1 res lg2 Hpat Hbv Hrun IH];
      intros Hpl sv lg0 st Hr.
    - apply yields_cons with (1 := step_pop rs E d sv st lg0 v lg Hr).
      eapply yields_cons; [reflexivity|apply yields_nil].
    - apply (case_head pb arm r v sv lg0 lg _ lg1 st _ Hr Hpat).
      apply yields_cons with (1 := step_jmpcond_bool rs E d false _ true _ lg1).
      apply yields_cons with (1 := step_pop_plain rs E d v st lg1 Hpl).
      apply yields_app with (1 := pushes_yields rs E d arm lg1 sva lg2 st Harm).
      eapply yields_skip_all; [apply step_jmp|unfold tail_code; len].
    - apply (case_head pb arm r v sv lg0 lg _ lg1 st _ Hr Hpat).
      eapply (yields_skip rs E d _ _ (IPop :: arm ++ [IJmp _])).
      + destruct Hbv as [->|[e ->]]; reflexivity.
      + cbn [app]. rewrite <- app_assoc. reflexivity.
      + len.
      + apply IH; [exact Hpl|apply resolves_plain, Hpl].
  Qed.

  (** match cc { cases }: the scrutinee is evaluated and resolved once (by the first Dup; with no case
      at all, by the Pop of the tail) *)
  Theorem match_evaluates_any cc cs lg sv lg1 v lg2 res lg3 :
    pushes rs E d cc lg sv lg1 -> resolves rs E d sv lg1 v lg2 -> plainv v ->
    match_run v lg2 cs res lg3 ->
    forall st, exists f, loop rs f E d (match_code cc cs) O st lg = (ROk (res :: st), lg3).
  Proof.
    intros Hcc Hres Hpl Hrun st. apply yields_run.
    apply yields_app with (1 := pushes_yields rs E d cc lg sv lg1 st Hcc).
    exact (cases_run v lg2 cs res lg3 Hrun Hpl sv lg1 st Hres).
  Qed.

  Theorem match_evaluates cc cs lg sv lg1 v lg2 res lg3 :
    pushes rs E d cc lg sv lg1 -> resolves rs E d sv lg1 v lg2 -> plainv v -> cs <> [] ->
    match_run v lg2 cs res lg3 ->
    forall st, exists f, loop rs f E d (match_code cc cs) O st lg = (ROk (res :: st), lg3).
  Proof. intros Hcc Hres Hpl _. exact (match_evaluates_any cc cs lg sv lg1 v lg2 res lg3 Hcc Hres Hpl). Qed.

  (** the arms of skipped cases and every case after the chosen one are ANY code: nothing of them runs *)
  Corollary match_first_hit cc pb arm r lg sv lg1 v lg2 lg3 sva lg4 :
    pushes rs E d cc lg sv lg1 -> resolves rs E d sv lg1 v lg2 -> plainv v ->
    pat_eval pb v lg2 (VBool true) lg3 -> pushes rs E d arm lg3 sva lg4 ->
    forall st, exists f, loop rs f E d (match_code cc ((pb, arm) :: r)) O st lg = (ROk (sva :: st), lg4).
  Proof. intros Hc Hr Hp Hpat Harm. eapply match_evaluates; eauto; [discriminate|]. eapply mr_hit; eauto. Qed.
End Match.
