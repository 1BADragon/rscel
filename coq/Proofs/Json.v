(* Proofs/Json.v — C12: a value bound through JSON arrives as the value bound
   directly (unsigned integers that fit a signed one arrive signed). *)
From Coq Require Import ZArith List Bool Lia.
From Coq Require Import Floats.SpecFloat.
From Rscel Require Import Base.Prims Base.F64 Model.Value Model.Ops Model.Json Spec.Wf.
From Rscel Require Import Proofs.OpsArith Proofs.OpsOrder Proofs.OpsColl Proofs.ValueInd.
Import ListNotations.
Open Scope Z_scope.

Theorem json_roundtrip : forall v j, wf v = true -> json_of_value v = Some j -> value_of_json j = canon v.
Proof.
  induction v as [l IH|m IH|v Hv] using value_ind_nested; intros j Hw Hj.
  - cbn [json_of_value] in Hj. cbn [canon].
    match type of Hj with option_map _ (?g l) = _ => set (go := g) in *; destruct (go l) as [js|] eqn:G; [|discriminate] end.
    cbn in Hj. inversion Hj; subst j. clear Hj. cbn [value_of_json]. f_equal.
    cbn [wf] in Hw.
    revert js G Hw. induction IH as [|x r Hx Hr IHr]; intros js G Hw; cbn in G.
    + inversion G. reflexivity.
    + destruct (json_of_value x) as [jx|] eqn:Jx; [|discriminate]. fold go in G. destruct (go r) as [jr|] eqn:Gr; [|discriminate].
      inversion G; subst js. apply andb_true_iff in Hw. destruct Hw as [Hwx Hwr]. cbn [map].
      rewrite (Hx jx Hwx eq_refl). f_equal. apply IHr; [reflexivity|exact Hwr].
  - cbn [json_of_value] in Hj. cbn [canon].
    match type of Hj with option_map _ (?g m) = _ => set (go := g) in *; destruct (go m) as [js|] eqn:G; [|discriminate] end.
    cbn in Hj. inversion Hj; subst j. clear Hj. cbn [value_of_json]. f_equal.
    cbn [wf] in Hw. apply andb_true_iff in Hw. destruct Hw as [Hs Hw].
    revert js G Hw Hs. induction IH as [|[k x] r Hx Hr IHr]; intros js G Hw Hs; cbn in G.
    + inversion G. reflexivity.
    + destruct (json_of_value x) as [jx|] eqn:Jx; [|discriminate]. fold go in G. destruct (go r) as [jr|] eqn:Gr; [|discriminate].
      inversion G; subst js. apply andb_true_iff in Hw. destruct Hw as [Hwx Hwr].
      apply andb_true_iff in Hwx. destruct Hwx as [_ Hwx]. cbn [snd] in Hx.
      destruct (keys_sorted_above k r Hs) as [Ha Hs'].
      rewrite (IHr jr eq_refl Hwr Hs'). rewrite (Hx jx Hwx Jx). cbn [map fst snd].
      apply map_insert_first, keys_above_map. exact Ha.
  - destruct v; try (destruct Hv); cbn in Hj; try discriminate; cbn [canon].
    + inversion Hj; subst j. destruct (z <? 0); cbn [value_of_json]; [reflexivity|].
      apply in_i64_spec in Hw. destruct (Z.leb_spec z 9223372036854775807); [reflexivity|]. unfold i64_max in Hw. lia.
    + inversion Hj; subst j. reflexivity.
    + destruct (f64_is_finite f); [|discriminate]. inversion Hj; subst j. reflexivity.
    + inversion Hj; subst j. reflexivity.
    + inversion Hj; subst j. reflexivity.
    + inversion Hj; subst j. reflexivity.
Qed.
