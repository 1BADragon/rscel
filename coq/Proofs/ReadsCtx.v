(* Proofs/ReadsCtx.v — C17 for a context holding several programs that refer to one another: the reported
   parameters of ALL stored programs decide the result of executing any of them. *)
From Coq Require Import ZArith List Bool Lia.
From Rscel Require Import Base.Prims Base.F64 Base.Text Model.Strings Model.Time Model.Value Model.Ops Model.Dispatch Model.Funcs Model.Interp
     Model.Lexer Model.Ast Model.Parser Model.Compile Proofs.OpsColl Proofs.Relevance Proofs.Reads.
Import ListNotations.
Import Coq.Strings.String.StringSyntax.
Open Scope Z_scope.

(** every stored program is what the compiler made of some source, and [names] holds what they report *)
Definition compiled_context (progs : list (bytes * code)) (names : list bytes) : Prop :=
  forall n c, assoc n progs = Some c ->
    exists fuel src p k, compile_source fuel src = COk p k /\ c = pr_code p /\ incl (pr_params p) names.

Definition ctx_env (ps : list (bytes * value)) (progs : list (bytes * code)) (ufs : list (bytes * ufun)) (now : Z) : env :=
  mkEnv true ps progs ufs true (Some now).

Lemma compiled_context_ok progs names : compiled_context progs names ->
  forall n c, assoc n progs = Some c -> okc (inS names) c.
Proof.
  intros H n c Hc. destruct (H n c Hc) as (fuel & src & p & k & Hcomp & -> & Hincl).
  unfold okc. eapply okv_mono; [|exact (program_reads_only_its_params fuel src p k Hcomp)].
  intros m Hm. eapply inS_incl; eauto.
Qed.

(** Two sets of bindings that agree on every name reported by any program of the context (and on variables
    named like built-in types) give the same outcome for every stored program, through every chain of
    references between the programs. *)
Theorem context_params_decide_the_result progs names : compiled_context progs names ->
  forall ps ps' ufs now, pure_binds ps -> pure_binds ps' -> pure_ufuns ufs ->
  (forall n, In n names \/ is_type_name n = true -> map_get ps n = map_get ps' n) ->
  forall fuelr name,
    exec fuelr (ctx_env ps progs ufs now) name = exec fuelr (ctx_env ps' progs ufs now) name.
Proof.
  intros Hctx ps ps' ufs now B1 B2 Bu Hag fuelr name. unfold exec. cbn [ctx_env e_progs].
  destruct (assoc name progs) as [c|] eqn:Hc; [|reflexivity].
  rewrite (vm_same_outcome (inS names) fuelr (ctx_env ps progs ufs now) (ctx_env ps' progs ufs now) c true O).
  - reflexivity.
  - apply agree_run_envs; auto. apply compiled_context_ok. exact Hctx.
  - eapply compiled_context_ok; eauto.
Qed.

(** the premise is met by an ordinary context: `a` refers to `b`, both read variables *)
Example compiled_context_somewhere :
  exists ca cb, compiled_context [(#"a", ca); (#"b", cb)] [#"b"; #"x"; #"y"] /\
    exec 100 (ctx_env [(#"x", VInt 1); (#"y", VInt 20)] [(#"a", ca); (#"b", cb)] [] 0) #"a" = (ROk (VInt 41), []).
Proof.
  destruct (compile_source 40 #"b + x") as [pa ka| | | |] eqn:Ha; try (vm_compute in Ha; discriminate Ha).
  destruct (compile_source 40 #"y * 2") as [pb kb| | | |] eqn:Hb; try (vm_compute in Hb; discriminate Hb).
  exists (pr_code pa), (pr_code pb). split.
  - intros n c. cbn [assoc]. destruct (bytes_eqb n #"a").
    + intros E. injection E as <-. exists 40%nat, #"b + x", pa, ka. split; [exact Ha|]. split; [reflexivity|].
      vm_compute in Ha. injection Ha as <- _. cbn [pr_params]. intros m [<-|[<-|[]]]; cbn; auto.
    + destruct (bytes_eqb n #"b"); [|discriminate]. intros E. injection E as <-. exists 40%nat, #"y * 2", pb, kb. split; [exact Hb|]. split; [reflexivity|].
      vm_compute in Hb. injection Hb as <- _. cbn [pr_params]. intros m [<-|[]]; cbn; auto.
  - vm_compute in Ha. injection Ha as <- _. vm_compute in Hb. injection Hb as <- _. vm_compute. reflexivity.
Qed.
