(* Proofs/Absent.v — C08: has() and coalesce() distinguish absent data
   (unbound variable, absent field) from every other failure; field paths
   evaluate to the leaf or to an absent-data error by the binding configuration. *)
From Coq Require Import ZArith List Bool Lia.
From Rscel Require Import Base.Prims Base.F64 Base.Text Model.Value Model.Ops Model.Dispatch Model.Funcs Model.Interp.
From Rscel Require Import Proofs.VM Proofs.Blocks.
Import ListNotations.
Import Coq.Strings.String.StringSyntax.
Open Scope Z_scope.

Definition absent (e : cel_error) : bool :=
  match e with EBinding _ | EAttribute _ => true | _ => false end.

Section HasCoalesce.
  Variable rs : runner.
  Variable E : env.
  Variable d : nat.

  (** has(e): true when e evaluates, false exactly when it fails as absent
      data, and every other failure is propagated. *)
  Theorem has_spec this c lg :
    call_macro_impl rs E d #"has" this [c] lg =
    match rs E c true d lg with
    | (ROk _, lg') => (ROk (VBool true), lg')
    | (RErr e, lg') => if absent e then (ROk (VBool false), lg') else (ROk (VErr e), lg')
    | (o, lg') => (mcast o, lg')
    end.
  Proof.
    change (call_macro_impl rs E d #"has" this [c] lg) with
      (match rs E c true d lg with
       | (ROk _, lg') => (ROk (VBool true), lg')
       | (RErr (EBinding _), lg') | (RErr (EAttribute _), lg') => (ROk (VBool false), lg')
       | (RErr e, lg') => (ROk (VErr e), lg')
       | (x, lg') => (mcast x, lg')
       end).
    destruct (rs E c true d lg) as [[v|e| | |] lg']; try reflexivity. destruct e; reflexivity.
  Qed.

  Theorem has_arity this args :
    length args <> 1%nat -> forall lg, call_macro_impl rs E d #"has" this args lg = (ROk (VErr EArgument), lg).
  Proof. intros H lg. destruct args as [|a [|b r]]; try reflexivity. cbn in H. congruence. Qed.

  (** an argument coalesce skips: null, or absent data *)
  Definition skipped (c : code) (lg lg' : log) : Prop :=
    rs E c true d lg = (ROk VNull, lg') \/ exists e, absent e = true /\ rs E c true d lg = (RErr e, lg').

  Inductive all_skipped : list code -> log -> log -> Prop :=
  | sk_nil lg : all_skipped [] lg lg
  | sk_cons c r lg lg1 lg2 : skipped c lg lg1 -> all_skipped r lg1 lg2 -> all_skipped (c :: r) lg lg2.

  Lemma coalesce_skip c r lg lg1 : skipped c lg lg1 -> coalesce_loop rs E d (c :: r) lg = coalesce_loop rs E d r lg1.
  Proof.
    intros [H|(e & Ha & H)]; cbn [coalesce_loop]; rewrite H; [reflexivity|]. destruct e; try discriminate Ha; reflexivity.
  Qed.

  Lemma coalesce_loop_app pre rest lg lg1 :
    all_skipped pre lg lg1 -> coalesce_loop rs E d (pre ++ rest) lg = coalesce_loop rs E d rest lg1.
  Proof.
    induction 1 as [lg|c0 r lg lg1' lg2' Hs Ha IH]; [reflexivity|].
    cbn [app]. rewrite (coalesce_skip c0 _ lg lg1' Hs). exact IH.
  Qed.

  (** coalesce returns the first argument that is neither null nor absent,
      evaluating left to right and nothing after the chosen one. *)
  Theorem coalesce_first_present pre c post lg lg1 v lg2 :
    all_skipped pre lg lg1 -> rs E c true d lg1 = (ROk v, lg2) -> v <> VNull ->
    coalesce_loop rs E d (pre ++ c :: post) lg = (ROk v, lg2).
  Proof.
    intros Ha Hc Hn. rewrite (coalesce_loop_app pre _ lg lg1 Ha).
    cbn [coalesce_loop]. rewrite Hc. destruct v; try reflexivity. congruence.
  Qed.

  (** every other failure is propagated (and stops the evaluation) *)
  Theorem coalesce_other_failure pre c post lg lg1 e lg2 :
    all_skipped pre lg lg1 -> rs E c true d lg1 = (RErr e, lg2) -> absent e = false ->
    coalesce_loop rs E d (pre ++ c :: post) lg = (ROk (VErr e), lg2).
  Proof.
    intros Ha Hc Hn. rewrite (coalesce_loop_app pre _ lg lg1 Ha).
    cbn [coalesce_loop]. rewrite Hc. destruct e; try discriminate Hn; reflexivity.
  Qed.

  (** null when nothing qualifies (any arity, including zero) *)
  Theorem coalesce_nothing_qualifies args lg lg' :
    all_skipped args lg lg' -> coalesce_loop rs E d args lg = (ROk VNull, lg').
  Proof. intros Ha. rewrite <- (app_nil_r args), (coalesce_loop_app args [] lg lg' Ha). reflexivity. Qed.
End HasCoalesce.

(** one field access on a value (the name is not a function or macro) *)
Definition field (obj : value) (f : bytes) : value :=
  match obj with
  | VMap m => match map_get m f with Some v => v | None => VErr (EAttribute f) end
  | VErr e => VErr e
  | _ => VErr (EAttribute f)
  end.

Definition path_code (fs : list bytes) : code :=
  flat_map (fun f => [IPush (VIdent f); IAccess]) fs.

Fixpoint path_vals (v : value) (fs : list bytes) : list value :=
  match fs with [] => [v] | f :: r => v :: path_vals (field v f) r end.

Section Paths.
  Variable rs : runner.
  Variable E : env.
  Variable d : nat.
  Hypothesis Hbound : e_bound E = true.
  Hypothesis Hrun : folding E = false.      (* an execution, not the compiler's constant folding *)

  Lemma access_step obj f st lg :
    plainv obj -> has_func E f = false -> has_macro E f = false ->
    step rs E d IAccess (SVal (VIdent f) :: SVal obj :: st) lg = (ROk (None, SVal (field obj f) :: st), lg).
  Proof.
    intros Hp Hf Hm. cbn [step]. unfold mbind at 1. cbn [pop_noresolve mret].
    unfold mbind at 1. rewrite (resolves_plain rs E d obj lg Hp st).
    destruct obj; cbn [field]; rewrite ?Hbound, ?Hf, ?Hm, ?Hrun; cbn [negb]; try reflexivity;
      try (destruct (map_get m f); rewrite ?Hrun; reflexivity); try (destruct Hp).
  Qed.

  (** A path of field accesses from a value computes the fold of [field]:
      the leaf, or the absent-field error of the first missing step (which
      every later step carries on unchanged). *)
  Theorem path_run : forall fs v st lg,
    Forall plainv (path_vals v fs) ->
    (forall f, In f fs -> has_func E f = false /\ has_macro E f = false) ->
    yields rs E d (path_code fs) (SVal v :: st) lg (ROk (SVal (fold_left field fs v) :: st), lg).
  Proof.
    induction fs as [|f r IH]; intros v st lg Hpl Hnf; [apply yields_nil|].
    cbn [path_vals] in Hpl. apply Forall_cons_iff in Hpl. destruct Hpl as [Hv Hr].
    destruct (Hnf f (or_introl eq_refl)) as [Hf Hm].
    cbn [path_code flat_map app fold_left]. eapply yields_cons; [reflexivity|].
    apply yields_cons with (1 := access_step v f st lg Hv Hf Hm).
    exact (IH (field v f) st lg Hr (fun g Hg => Hnf g (or_intror Hg))).
  Qed.
End Paths.

(** Classification of the leaf by the configuration: the fold of [field] over
    a path is the stored leaf when every step exists; a missing step or a
    non-map yields an absent-field error, and an error (such as an unbound
    root, or a division by zero) is carried to the end unchanged. *)
Theorem field_on_error_is_that_error : forall e f, field (VErr e) f = VErr e.
Proof. reflexivity. Qed.

Theorem path_from_error : forall fs e, fold_left field fs (VErr e) = VErr e.
Proof. induction fs as [|f r IH]; intros e; [reflexivity|]. cbn [fold_left field]. apply IH. Qed.

Theorem path_absent_propagates : forall fs v,
  (forall m, v <> VMap m) -> is_err v = false -> fs <> [] ->
  exists f, fold_left field fs v = VErr (EAttribute f).
Proof.
  intros fs v Hv He Hne. destruct fs as [|f r]; [congruence|]. cbn [fold_left].
  assert (Hf : field v f = VErr (EAttribute f)).
  { destruct v; try reflexivity; try discriminate He. exfalso. eapply Hv. reflexivity. }
  rewrite Hf, path_from_error. exists f. reflexivity.
Qed.
