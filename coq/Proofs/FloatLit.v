(* Proofs/FloatLit.v — C13: a decimal floating-point literal denotes the
   correctly rounded (to nearest, ties to even) binary64 of the real number
   mantissa * 10^exponent, or +infinity on overflow.  Uses Flocq's
   specification of rounding over the reals (hence the standard real-number
   and classical axioms of the Coq standard library). *)
From Coq Require Import ZArith Bool Reals Lia Floats.SpecFloat.
From Flocq Require Import Core.Zaux Core.Raux Core.Defs Core.Float_prop Core.Generic_fmt Core.FLT
  Core.Round_NE IEEE754.BinarySingleNaN.
From Rscel Require Import Base.F64 Base.Text Model.Lexer Proofs.F64Facts.
Open Scope Z_scope.

(** the real number spelled by mantissa m and decimal exponent e *)
Definition dec_real (m e : Z) : R :=
  if 0 <=? e then IZR (m * 10 ^ e) else (IZR m / IZR (10 ^ (- e)))%R.

Notation fexp64 := (FLT_exp (3 - 1024 - 53) 53).
Notation rnd64 x := (round radix2 fexp64 ZnearestE x).

Theorem dec_to_f64_correctly_rounded pm e :
  let x := dec_real (Zpos pm) e in
  let z := dec_to_f64 (Zpos pm) e in
  if Rlt_bool (Rabs (rnd64 x)) (bpow radix2 1024) then
    SF2R radix2 z = rnd64 x /\ is_finite_SF z = true
  else z = S754_infinity false.
Proof.
  intros x z. unfold z, x, dec_to_f64, dec_real. destruct (0 <=? e) eqn:He.
  - (* integer mantissa * 10^e, one rounding *)
    unfold prec64, emax64. rewrite binary_normalize_equiv.
    pose proof (binary_normalize_correct 53 1024 Hprec64 Hmax64 mode_NE (Zpos pm * 10 ^ e) 0 false) as H.
    cbv zeta in H. unfold F2R in H. cbn [Fnum Fexp] in H. change (bpow radix2 0) with 1%R in H. rewrite Rmult_1_r in H.
    change (round_mode mode_NE) with ZnearestE in H.
    match type of H with (if ?c then _ else _) =>
      match goal with |- if ?c' then _ else _ => change c' with c end; destruct c end.
    + destruct H as (H1 & H2 & _). split; [rewrite SF2R_B2SF; exact H1|].
      rewrite is_finite_SF_B2SF. exact H2.
    + rewrite H. apply Z.leb_le in He.
      assert (Hpos : (0 < IZR (Zpos pm * 10 ^ e))%R).
      { apply IZR_lt. apply Z.mul_pos_pos; [reflexivity|apply Z.pow_pos_nonneg; lia]. }
      rewrite Rlt_bool_false by (apply Rlt_le; exact Hpos). reflexivity.
  - (* division by a power of ten, one rounding *)
    apply Z.leb_gt in He. destruct (10 ^ (- e)) as [|pd|pd] eqn:Ep.
    + exfalso. assert (0 < 10 ^ (- e)) by (apply Z.pow_pos_nonneg; lia). lia.
    + unfold prec64, emax64.
      pose proof (Bdiv_correct_aux 53 1024 Hprec64 Hmax64 mode_NE false pm 0 false pd 0) as H.
      cbv zeta in H. unfold F2R in H. cbn [Fnum Fexp cond_Zopp xorb] in H. change (bpow radix2 0) with 1%R in H. rewrite !Rmult_1_r in H.
      change (round_mode mode_NE) with ZnearestE in H.
      destruct (SFdiv_core_binary 53 1024 (Z.pos pm) 0 (Z.pos pd) 0) as [[mz ez] lz].
      rewrite binary_round_aux_equiv. destruct H as [_ H].
      match type of H with (if ?c then _ else _) =>
        match goal with |- if ?c' then _ else _ => change c' with c end; destruct c end.
      * destruct H as (H1 & H2 & _). split; assumption.
      * exact H.
    + exfalso. assert (0 < 10 ^ (- e)) by (apply Z.pow_pos_nonneg; lia). lia.
Qed.

Theorem dec_to_f64_zero e : dec_to_f64 0 e = S754_zero false.
Proof. reflexivity. Qed.
