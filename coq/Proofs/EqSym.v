(* Proofs/EqSym.v — C04: == is symmetric on all error-free data values (scalars of any two types, lists, maps; nested). *)
From Coq Require Import ZArith List Bool Lia.
From Rscel Require Import Base.Prims Base.F64 Base.Text Model.Value Model.Ops Spec.Wf.
From Rscel Require Import Proofs.OpsArith Proofs.OpsOrder Proofs.OpsColl Proofs.EqMaps Proofs.ValueInd.
Import ListNotations.
Open Scope Z_scope.

(** scalar data, lists and maps of them (nested); NaN allowed *)
Fixpoint pure (v : value) : bool :=
  match v with
  | VInt _ | VUInt _ | VFloat _ | VBool _ | VString _ | VBytes _ | VNull | VType _ | VTime _ | VDur _ => true
  | VList l => (fix go (l : list value) := match l with [] => true | x :: r => pure x && go r end) l
  | VMap m => (fix go (m : list (bytes * value)) := match m with [] => true | (_, x) :: r => pure x && go r end) m
  | _ => false
  end.

Lemma pure_not_err v : pure v = true -> is_err v = false.
Proof. destruct v; cbn; intros; try reflexivity; discriminate. Qed.

Lemma pure_list l : pure (VList l) = forallb pure l.
Proof. induction l as [|x l IH]; [reflexivity|]. cbn [pure forallb] in *. rewrite IH. reflexivity. Qed.

Lemma pure_map m : pure (VMap m) = forallb (fun kv => pure (snd kv)) m.
Proof. induction m as [|[k x] m IH]; [reflexivity|]. cbn [pure forallb snd] in *. rewrite IH. reflexivity. Qed.

(** Two strictly sorted maps of the same length, each entry of the left found in the right:
    then every key of the right is a key of the left, so the inclusion holds the other way round. *)
Lemma all_in_swap f g l r : smap l -> smap r -> length l = length r ->
  (forall k x y, In (k, x) l -> In (k, y) r -> f x y = g y x) ->
  all_in f r l = true -> all_in g l r = true.
Proof.
  intros Sl Sr Hlen Hfg H. rewrite all_in_spec in H. apply all_in_spec. intros k y Hin.
  assert (Hincl : incl (map fst l) (map fst r)).
  { intros k0 Hk. apply in_map_iff in Hk. destruct Hk as ([k1 x1] & E & Hk). cbn in E. subst k1.
    destruct (H k0 x1 Hk) as (y1 & G & _). apply map_get_in in G. apply in_map_iff. exists (k0, y1). split; [reflexivity|exact G]. }
  assert (Hback : incl (map fst r) (map fst l)).
  { apply NoDup_length_incl; [apply smap_nodup; exact Sl| rewrite !map_length; lia | exact Hincl]. }
  assert (Hk : In k (map fst l)).
  { apply Hback. apply in_map_iff. exists (k, y). split; [reflexivity|exact Hin]. }
  apply in_map_iff in Hk. destruct Hk as ([k1 x] & E & Hx). cbn in E. subst k1.
  exists x. split; [apply in_map_get; assumption|].
  destruct (H k x Hx) as (y' & G & Hf). rewrite (in_map_get r k y Sr Hin) in G. injection G as <-.
  rewrite <- (Hfg k x y Hx Hin). exact Hf.
Qed.

Lemma list_loop_sym : forall l r,
  (forall x y, In x l -> In y r -> eq_ x y = eq_ y x) -> list_eq_loop l r = list_eq_loop r l.
Proof.
  induction l as [|x l IH]; destruct r as [|y r]; intros H; try reflexivity.
  cbn [list_eq_loop]. rewrite (H x y (or_introl eq_refl) (or_introl eq_refl)).
  rewrite (IH r); [reflexivity|]. intros x' y' Hx Hy. apply H; right; assumption.
Qed.

Lemma zlen_eqb {A B} (l : list A) (r : list B) : (zlen l =? zlen r) = true -> length l = length r.
Proof. intros L. apply Z.eqb_eq in L. apply Nat2Z.inj. exact L. Qed.

Lemma eq_sym_all : forall a b, wf a = true -> wf b = true -> pure a = true -> pure b = true -> eq_ a b = eq_ b a.
Proof.
  induction a as [la IH|ma IH|a Ha] using value_ind_nested; intros b Wa Wb Pa Pb.
  - (* a list against anything but a list is [false] either way *)
    destruct b as [| | | | | |lb| | | | | | | |]; try discriminate Pb; try reflexivity.
    rewrite !eq_list, (Z.eqb_sym (zlen lb)). destruct (zlen la =? zlen lb); [|reflexivity].
    apply list_loop_sym.
    rewrite wf_list, forallb_forall in Wa, Wb. rewrite pure_list, forallb_forall in Pa, Pb.
    rewrite Forall_forall in IH. auto.
  - destruct b as [| | | | | | |mb| | | | | | |]; try discriminate Pb; try reflexivity.
    destruct (wf_map_parts ma Wa) as [Sa Va], (wf_map_parts mb Wb) as [Sb Vb].
    rewrite pure_map, forallb_forall in Pa, Pb. rewrite Forall_forall in IH.
    assert (Hsym : forall k x y, In (k, x) ma -> In (k, y) mb -> is_true (eq_ x y) = is_true (eq_ y x)).
    { intros k x y Hx Hy. f_equal. exact (IH (k, x) Hx y (Va k x Hx) (Vb k y Hy) (Pa _ Hx) (Pb _ Hy)). }
    rewrite !eq_map, (Z.eqb_sym (zlen mb)). destruct (zlen ma =? zlen mb) eqn:L.
    + (* equal sizes: each inclusion gives the other *)
      apply zlen_eqb in L.
      destruct (all_in _ mb ma) eqn:A1.
      * rewrite (all_in_swap _ _ ma mb Sa Sb L Hsym A1). reflexivity.
      * destruct (all_in _ ma mb) eqn:A2; [|reflexivity].
        rewrite (all_in_swap _ _ mb ma Sb Sa (eq_sym L) (fun k y x Hy Hx => eq_sym (Hsym k x y Hx Hy)) A2) in A1.
        discriminate A1.
    + destruct (all_in _ mb ma), (all_in _ ma mb); reflexivity.
  - assert (Sa : scalar a = true) by (destruct a; try contradiction; try discriminate Pa; reflexivity).
    destruct (scalar b) eqn:Sb; [apply eq_sym_scalar; assumption|].
    destruct a; try discriminate Sa; destruct b; try discriminate Sb; try discriminate Pb; reflexivity.
Qed.

Theorem eq_sym_pure : forall n a b, (vsize a < n)%nat ->
  wf a = true -> wf b = true -> pure a = true -> pure b = true -> eq_ a b = eq_ b a.
Proof. intros n a b _. apply eq_sym_all. Qed.
