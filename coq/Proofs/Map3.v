(* Proofs/Map3.v — C07: the three-argument map  l.map(x, pred, f): the predicate is evaluated on every
   element in order; f is evaluated exactly on those whose predicate is truthy, right after it; the result
   lists f's values in order; the first failing predicate or f ends the loop with that failure. *)
From Coq Require Import ZArith List Bool Lia.
From Rscel Require Import Base.Prims Base.F64 Base.Text Model.Value Model.Ops Model.Dispatch Model.Funcs Model.Interp.
Import ListNotations.
Open Scope Z_scope.

Section Map3.
  Variable rs : runner.
  Variable E : env.
  Variable dcur : nat.
  Variable x : bytes.
  Variable pred body : code.

  Definition Bp (v : value) : M (value + value) := run_body rs dcur (bind_param E x v) pred.
  Definition Bf (v : value) : M (value + value) := run_body rs dcur (bind_param E x v) body.

  (** [trace3 l lg ys lg']: per element the predicate, then (only when it is truthy) the transformation *)
  Inductive trace3 : list value -> log -> list value -> log -> Prop :=
  | t3_nil lg : trace3 [] lg [] lg
  | t3_keep v r lg b lg1 y lg2 ys lg3 :
      Bp v lg = (ROk (inr b), lg1) -> is_truthy b = true -> Bf v lg1 = (ROk (inr y), lg2) ->
      trace3 r lg2 ys lg3 -> trace3 (v :: r) lg (y :: ys) lg3
  | t3_drop v r lg b lg1 ys lg2 :
      Bp v lg = (ROk (inr b), lg1) -> is_truthy b = false ->
      trace3 r lg1 ys lg2 -> trace3 (v :: r) lg ys lg2.

  Lemma map3_loop_app pre rest lg ys lg1 : trace3 pre lg ys lg1 -> forall acc,
    map_loop rs E dcur x (Some pred) body (pre ++ rest) acc lg =
    map_loop rs E dcur x (Some pred) body rest (rev ys ++ acc) lg1.
  Proof.
    induction 1 as [lg|u r lg b lg1' y lg2' ys lg3 Hp Htr Hf Ht IH|u r lg b lg1' ys lg2' Hp Htr Ht IH];
      intros acc; [reflexivity| |]; cbn [app map_loop]; unfold mbind at 1; fold (Bp u); rewrite Hp, Htr.
    - unfold mbind at 1. fold (Bf u). rewrite Hf, IH. cbn [rev]. rewrite <- app_assoc. reflexivity.
    - apply IH.
  Qed.

  Theorem map3_filters_then_maps l : forall lg ys lg' acc,
    trace3 l lg ys lg' ->
    map_loop rs E dcur x (Some pred) body l acc lg = (ROk (VList (rev acc ++ ys)), lg').
  Proof.
    intros lg ys lg' acc Ht. rewrite <- (app_nil_r l), (map3_loop_app l [] lg ys lg' Ht).
    cbn [map_loop]. rewrite rev_app_distr, rev_involutive. reflexivity.
  Qed.

  (** a failing predicate ends the loop with that failure; the transformation is not evaluated for it *)
  Theorem map3_stops_at_failing_predicate pre v post lg ys lg1 e lg2 acc :
    trace3 pre lg ys lg1 -> Bp v lg1 = (ROk (inl e), lg2) ->
    map_loop rs E dcur x (Some pred) body (pre ++ v :: post) acc lg = (ROk e, lg2).
  Proof.
    intros Ht Hb. rewrite (map3_loop_app pre _ lg ys lg1 Ht).
    cbn [map_loop]. unfold mbind. fold (Bp v). rewrite Hb. reflexivity.
  Qed.

  (** ... and so does a failing transformation of a selected element *)
  Theorem map3_stops_at_failing_body pre v post lg ys lg1 b lg2 e lg3 acc :
    trace3 pre lg ys lg1 -> Bp v lg1 = (ROk (inr b), lg2) -> is_truthy b = true -> Bf v lg2 = (ROk (inl e), lg3) ->
    map_loop rs E dcur x (Some pred) body (pre ++ v :: post) acc lg = (ROk e, lg3).
  Proof.
    intros Ht Hb Hbt He. rewrite (map3_loop_app pre _ lg ys lg1 Ht).
    cbn [map_loop]. unfold mbind at 1. fold (Bp v). rewrite Hb, Hbt. unfold mbind. fold (Bf v). rewrite He. reflexivity.
  Qed.
End Map3.
