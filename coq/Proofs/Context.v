(* Proofs/Context.v — C11: histories over contexts and binding sets.
   Executing and inspecting change nothing; a write touches exactly one
   numbered store; clones evolve independently; the result of an exec is a
   function of the two stores it names, so it is the result a fresh context
   holding the same final sources gives.  The world after a history is a fold
   of the single steps ([fst_run_ops]), so what every step keeps, a history keeps. *)
From Coq Require Import ZArith List Bool Lia.
From Rscel Require Import Base.Prims Base.F64 Base.Text Model.Value Model.Ops Model.Funcs Model.Interp
  Model.Lexer Model.Compile Model.Context.
From Rscel Require Import Proofs.OpsOrder Proofs.OpsColl.
Import ListNotations.
Open Scope Z_scope.

Lemma assoc_map_get {A} k (l : list (bytes * A)) : assoc k l = map_get l k.
Proof. induction l as [|[k' v] l IH]; cbn; [reflexivity|]. rewrite IH. reflexivity. Qed.

Lemma zassoc_zset {A} k k2 (v : A) l : zassoc k2 (zset k v l) = if k2 =? k then Some v else zassoc k2 l.
Proof.
  induction l as [|[k' v'] l IH]; cbn [zset zassoc]; [reflexivity|].
  destruct (Z.eqb_spec k k') as [<-|N]; cbn [zassoc].
  - destruct (k2 =? k); reflexivity.
  - rewrite IH. destruct (Z.eqb_spec k2 k'), (Z.eqb_spec k2 k); try reflexivity; congruence.
Qed.

Lemma get_ctx_zset w c m c2 : get_ctx (mkWorld (zset c m (w_ctx w)) (w_bind w)) c2 = if c2 =? c then m else get_ctx w c2.
Proof. unfold get_ctx. cbn [w_ctx]. rewrite zassoc_zset. destruct (c2 =? c); reflexivity. Qed.
Lemma get_bind_zset w b m b2 : get_bind (mkWorld (w_ctx w) (zset b m (w_bind w))) b2 = if b2 =? b then m else get_bind w b2.
Proof. unfold get_bind. cbn [w_bind]. rewrite zassoc_zset. destruct (b2 =? b); reflexivity. Qed.

(** Adding a program: the source compiles and the program is stored, or nothing happens. *)
Definition compiled (fuel : nat) (src : chars) : option stored :=
  match compile_checked fuel src with COk p _ => Some (mkStored (pr_code p) (pr_params p)) | _ => None end.

Lemma step_add fuel w c name src :
  fst (step_op fuel w (OAddProgram c name src)) =
  match compiled fuel src with
  | Some s => mkWorld (zset c (map_insert (get_ctx w c) name s) (w_ctx w)) (w_bind w)
  | None => w
  end.
Proof. unfold compiled. cbn [step_op]. destruct (compile_checked fuel src); reflexivity. Qed.

Definition writes_ctx (o : op) : option Z :=
  match o with OAddProgram c _ _ => Some c | OCloneCtx _ t => Some t | _ => None end.
Definition writes_bind (o : op) : option Z :=
  match o with OBind b _ _ => Some b | OCloneBind _ t => Some t | _ => None end.

(** Executing and inspecting change nothing at all. *)
Theorem exec_changes_nothing fuel w c b name : fst (step_op fuel w (OExec c b name)) = w.
Proof. reflexivity. Qed.
Theorem params_changes_nothing fuel w c name : fst (step_op fuel w (OParams c name)) = w.
Proof. reflexivity. Qed.

(** A write touches only the store it names. *)
Theorem ctx_frame fuel w o c : writes_ctx o <> Some c -> get_ctx (fst (step_op fuel w o)) c = get_ctx w c.
Proof.
  intros H. destruct o as [c0 n src|b n v|f t|f t|c0 b n|c0 n]; try reflexivity; cbn [writes_ctx] in H.
  - rewrite step_add. destruct (compiled fuel src); [|reflexivity].
    rewrite get_ctx_zset. destruct (Z.eqb_spec c c0); congruence.
  - cbn [step_op fst]. rewrite get_ctx_zset. destruct (Z.eqb_spec c t); congruence.
Qed.

Theorem bind_frame fuel w o b : writes_bind o <> Some b -> get_bind (fst (step_op fuel w o)) b = get_bind w b.
Proof.
  intros H. destruct o as [c0 n src|b0 n v|f t|f t|c0 b0 n|c0 n]; try reflexivity; cbn [writes_bind] in H.
  - rewrite step_add. destruct (compiled fuel src); reflexivity.
  - cbn [step_op fst]. rewrite get_bind_zset. destruct (Z.eqb_spec b b0); congruence.
  - cbn [step_op fst]. rewrite get_bind_zset. destruct (Z.eqb_spec b t); congruence.
Qed.

(** A clone starts as a copy ... *)
Theorem clone_ctx_copies fuel w f t : get_ctx (fst (step_op fuel w (OCloneCtx f t))) t = get_ctx w f.
Proof. cbn [step_op fst]. rewrite get_ctx_zset, Z.eqb_refl. reflexivity. Qed.
Theorem clone_bind_copies fuel w f t : get_bind (fst (step_op fuel w (OCloneBind f t))) t = get_bind w f.
Proof. cbn [step_op fst]. rewrite get_bind_zset, Z.eqb_refl. reflexivity. Qed.

Lemma fst_run_ops fuel : forall ops w,
  fst (run_ops fuel w ops) = fold_left (fun w o => fst (step_op fuel w o)) ops w.
Proof.
  induction ops as [|o r IH]; intros w; [reflexivity|]. cbn [run_ops fold_left]. rewrite <- IH.
  destruct (step_op fuel w o) as [w1 x]. cbn [fst]. destruct (run_ops fuel w1 r). reflexivity.
Qed.

(** ... and then evolves independently: no later history that does not name
    a store as the target of a write can change it. *)
Theorem ctx_frame_history fuel c : forall ops w,
  Forall (fun o => writes_ctx o <> Some c) ops -> get_ctx (fst (run_ops fuel w ops)) c = get_ctx w c.
Proof.
  intros ops w Hf. rewrite fst_run_ops. rewrite Forall_forall in Hf.
  apply (fold_left_invariant _ (fun w' => get_ctx w' c = get_ctx w c)); [|reflexivity].
  intros w' o Ho Hw'. rewrite ctx_frame by (apply Hf; exact Ho). exact Hw'.
Qed.

Theorem bind_frame_history fuel b : forall ops w,
  Forall (fun o => writes_bind o <> Some b) ops -> get_bind (fst (run_ops fuel w ops)) b = get_bind w b.
Proof.
  intros ops w Hf. rewrite fst_run_ops. rewrite Forall_forall in Hf.
  apply (fold_left_invariant _ (fun w' => get_bind w' b = get_bind w b)); [|reflexivity].
  intros w' o Ho Hw'. rewrite bind_frame by (apply Hf; exact Ho). exact Hw'.
Qed.

(** The result of an exec is a function of the two stores it names. *)
Definition exec_out (fuel : nat) (w : world) (c b : Z) (name : bytes) : out :=
  snd (step_op fuel w (OExec c b name)).

Theorem exec_function_of_stores fuel w1 w2 c1 c2 b1 b2 name :
  get_ctx w1 c1 = get_ctx w2 c2 -> get_bind w1 b1 = get_bind w2 b2 ->
  exec_out fuel w1 c1 b1 name = exec_out fuel w2 c2 b2 name.
Proof. intros Hc Hb. unfold exec_out. cbn. rewrite Hc, Hb. reflexivity. Qed.

(** Whatever happens in between — executions, inspections, writes to other
    stores, clones taken from these — the same exec gives the same result. *)
Theorem exec_history_independent fuel w ops c b name :
  Forall (fun o => writes_ctx o <> Some c /\ writes_bind o <> Some b) ops ->
  exec_out fuel (fst (run_ops fuel w ops)) c b name = exec_out fuel w c b name.
Proof.
  intros H. apply exec_function_of_stores.
  - apply ctx_frame_history. eapply Forall_impl; [|exact H]. cbn. tauto.
  - apply bind_frame_history. eapply Forall_impl; [|exact H]. cbn. tauto.
Qed.

(** An exec of a clone pair equals the exec of the originals (also when a "clone" overwrites its original). *)
Theorem exec_on_clones_any fuel w c b c' b' name :
  exec_out fuel (fst (run_ops fuel w [OCloneCtx c c'; OCloneBind b b'])) c' b' name = exec_out fuel w c b name.
Proof.
  rewrite fst_run_ops. cbn [fold_left]. apply exec_function_of_stores.
  - rewrite ctx_frame by discriminate. apply clone_ctx_copies.
  - rewrite clone_bind_copies. apply bind_frame. discriminate.
Qed.

Theorem exec_on_clones fuel w c b c' b' name : c' <> c -> b' <> b ->
  exec_out fuel (fst (run_ops fuel w [OCloneCtx c c'; OCloneBind b b'])) c' b' name = exec_out fuel w c b name.
Proof. intros _ _. apply exec_on_clones_any. Qed.

(** Repetition: n executions in a row all give the first one's result. *)
Theorem exec_repeat fuel w c b name n :
  snd (run_ops fuel w (repeat (OExec c b name) n)) = repeat (exec_out fuel w c b name) n.
Proof.
  induction n as [|n IH]; [reflexivity|]. cbn [repeat run_ops]. unfold exec_out in *. cbn [step_op snd] in *.
  destruct (run_ops fuel w (repeat (OExec c b name) n)) as [w2 xs] eqn:E. cbn [snd] in *. rewrite IH. reflexivity.
Qed.

(** Insert-or-replace: every store stays a sorted map. *)
Definition sorted_world (w : world) : Prop :=
  (forall c, smap (get_ctx w c)) /\ (forall b, smap (get_bind w b)).

Lemma step_sorted fuel w o : sorted_world w -> sorted_world (fst (step_op fuel w o)).
Proof.
  intros [Hc Hb]. destruct o as [c0 n src|b0 n v|f t|f t|c0 b0 n|c0 n]; try (split; assumption).
  - rewrite step_add. destruct (compiled fuel src); [|split; assumption].
    split; [|exact Hb]. intros c. rewrite get_ctx_zset. destruct (c =? c0); [apply map_insert_sorted|]; apply Hc.
  - split; [exact Hc|]. intros b. cbn [step_op fst]. rewrite get_bind_zset. destruct (b =? b0); [apply map_insert_sorted|]; apply Hb.
  - split; [|exact Hb]. intros c. cbn [step_op fst]. rewrite get_ctx_zset. destruct (c =? t); apply Hc.
  - split; [exact Hc|]. intros b. cbn [step_op fst]. rewrite get_bind_zset. destruct (b =? t); apply Hb.
Qed.

Theorem history_sorted fuel : forall ops w, sorted_world w -> sorted_world (fst (run_ops fuel w ops)).
Proof.
  intros ops w Hs. rewrite fst_run_ops. apply (fold_left_invariant _ sorted_world); [|exact Hs].
  intros w' o _. apply step_sorted.
Qed.

(** Binding replaces: afterwards the name has the new value and every other name is untouched. *)
Theorem bind_replaces fuel w b name v k : sorted_world w ->
  map_get (get_bind (fst (step_op fuel w (OBind b name v))) b) k =
  if bytes_eqb k name then Some v else map_get (get_bind w b) k.
Proof.
  intros [_ Hb]. cbn [step_op fst]. rewrite get_bind_zset, Z.eqb_refl. apply map_get_insert. apply Hb.
Qed.

(** Adding a program that compiles replaces: later lookups see the new one;
    one that does not compile leaves everything as it was. *)
Theorem add_program_replaces fuel w c name src k : sorted_world w ->
  map_get (get_ctx (fst (step_op fuel w (OAddProgram c name src))) c) k =
  match compiled fuel src with
  | Some s => if bytes_eqb k name then Some s else map_get (get_ctx w c) k
  | None => map_get (get_ctx w c) k
  end.
Proof.
  intros [Hc _]. rewrite step_add. destruct (compiled fuel src); [|reflexivity].
  rewrite get_ctx_zset, Z.eqb_refl. apply map_get_insert. apply Hc.
Qed.

(** source-level view of the contexts: what the caller would have to add to a
    fresh context to rebuild one *)
Definition sctx := list (bytes * chars).
Definition sget (sw : list (Z * sctx)) (c : Z) : sctx := match zassoc c sw with Some x => x | None => [] end.

Definition sstep (fuel : nat) (sw : list (Z * sctx)) (o : op) : list (Z * sctx) :=
  match o with
  | OAddProgram c name src =>
      match compiled fuel src with Some _ => zset c (map_insert (sget sw c) name src) sw | None => sw end
  | OCloneCtx f t => zset t (sget sw f) sw
  | _ => sw
  end.

Definition stored_of (fuel : nat) (src : chars) : stored :=
  match compiled fuel src with Some s => s | None => mkStored [] [] end.
Definition compile_all (fuel : nat) (m : sctx) : cel_ctx := map (fun kv => (fst kv, stored_of fuel (snd kv))) m.

Definition refines (fuel : nat) (w : world) (sw : list (Z * sctx)) : Prop :=
  forall c, get_ctx w c = compile_all fuel (sget sw c) /\ smap (sget sw c).

Lemma sget_zset sw c m c2 : sget (zset c m sw) c2 = if c2 =? c then m else sget sw c2.
Proof. unfold sget. rewrite zassoc_zset. destruct (c2 =? c); reflexivity. Qed.

Lemma step_refines fuel w sw o : refines fuel w sw -> refines fuel (fst (step_op fuel w o)) (sstep fuel sw o).
Proof.
  intros R. destruct o as [c0 n src|b0 n v|f t|f t|c0 b0 n|c0 n]; try exact R.
  - rewrite step_add. cbn [sstep]. destruct (compiled fuel src) as [s|] eqn:EC; [|exact R].
    intros c. rewrite get_ctx_zset, sget_zset. destruct (c =? c0); [|apply R].
    destruct (R c0) as [Rg Rs]. split; [|apply map_insert_sorted; exact Rs].
    rewrite Rg. replace s with (stored_of fuel src) by (unfold stored_of; rewrite EC; reflexivity).
    apply (map_insert_map (stored_of fuel)).
  - intros c. cbn [step_op fst sstep]. rewrite get_ctx_zset, sget_zset. destruct (c =? t); apply R.
Qed.

Definition srun (fuel : nat) (sw : list (Z * sctx)) (ops : list op) : list (Z * sctx) := fold_left (sstep fuel) ops sw.

Theorem history_refines fuel : forall ops w sw, refines fuel w sw -> refines fuel (fst (run_ops fuel w ops)) (srun fuel sw ops).
Proof.
  intros ops w sw R. rewrite fst_run_ops. unfold srun. revert w sw R.
  induction ops as [|o r IH]; intros w sw R; [exact R|]. apply IH, step_refines, R.
Qed.

(** a fresh context: add the given sources, in order, to a new context *)
Definition fresh_world (fuel : nat) (srcs : sctx) (binds : bind_ctx) : world :=
  fst (run_ops fuel empty_world
         (map (fun kv => OAddProgram 0 (fst kv) (snd kv)) srcs ++ map (fun kv => OBind 0 (fst kv) (snd kv)) binds)).

Lemma add_all fuel : forall (srcs : sctx) w,
  Forall (fun kv => compiled fuel (snd kv) <> None) srcs ->
  let w' := fst (run_ops fuel w (map (fun kv => OAddProgram 0 (fst kv) (snd kv)) srcs)) in
  get_ctx w' 0 = fold_left (fun a kv => map_insert a (fst kv) (snd kv)) (compile_all fuel srcs) (get_ctx w 0)
  /\ w_bind w' = w_bind w.
Proof.
  intros srcs w Hc. cbv zeta. rewrite fst_run_ops. revert w.
  induction Hc as [|[n src] r H1 _ IH]; intros w; [split; reflexivity|].
  cbn [map fold_left fst snd] in *. destruct (IH (fst (step_op fuel w (OAddProgram 0 n src)))) as [A B].
  rewrite A, B, step_add.
  change (compile_all fuel ((n, src) :: r)) with ((n, stored_of fuel src) :: compile_all fuel r).
  cbn [fold_left fst snd]. unfold stored_of. destruct (compiled fuel src); [|congruence].
  rewrite get_ctx_zset. split; reflexivity.
Qed.

Lemma bind_all fuel : forall (binds : bind_ctx) w,
  let w' := fst (run_ops fuel w (map (fun kv => OBind 0 (fst kv) (snd kv)) binds)) in
  get_bind w' 0 = fold_left (fun a kv => map_insert a (fst kv) (snd kv)) binds (get_bind w 0)
  /\ get_ctx w' 0 = get_ctx w 0.
Proof.
  intros binds w. cbv zeta. rewrite fst_run_ops. revert w.
  induction binds as [|[n v] r IH]; intros w; [split; reflexivity|].
  cbn [map fold_left fst snd step_op]. destruct (IH (mkWorld (w_ctx w) (zset 0 (map_insert (get_bind w 0) n v) (w_bind w)))) as [A B].
  rewrite A, B, get_bind_zset. split; reflexivity.
Qed.

Theorem fresh_world_stores fuel srcs binds :
  smap srcs -> smap binds -> Forall (fun kv => compiled fuel (snd kv) <> None) srcs ->
  get_ctx (fresh_world fuel srcs binds) 0 = compile_all fuel srcs /\
  get_bind (fresh_world fuel srcs binds) 0 = binds.
Proof.
  intros Hs Hb Hc. unfold fresh_world. rewrite fst_run_ops, fold_left_app, <- !fst_run_ops.
  destruct (add_all fuel srcs empty_world Hc) as [A B].
  set (w1 := fst (run_ops fuel empty_world (map (fun kv => OAddProgram 0 (fst kv) (snd kv)) srcs))) in *.
  destruct (bind_all fuel binds w1) as [C D]. cbv zeta in *. rewrite C, D, A. split.
  - apply (insert_all_sorted (compile_all fuel srcs) []). apply (smap_map (stored_of fuel)). exact Hs.
  - unfold get_bind. rewrite B. apply (insert_all_sorted binds []). exact Hb.
Qed.

Definition all_compile (fuel : nat) (sw : list (Z * sctx)) : Prop :=
  forall c, Forall (fun kv => compiled fuel (snd kv) <> None) (sget sw c).

Lemma sstep_all_compile fuel sw o : all_compile fuel sw -> all_compile fuel (sstep fuel sw o).
Proof.
  intros H. destruct o as [c0 n src|b0 n v|f t|f t|c0 b0 n|c0 n]; cbn [sstep]; try exact H.
  - destruct (compiled fuel src) eqn:EC; [|exact H]. intros c. rewrite sget_zset. destruct (c =? c0); [|apply H].
    apply forall_insert; [apply H|]. cbn. congruence.
  - intros c. rewrite sget_zset. destruct (c =? t); apply H.
Qed.

(** Any history from scratch: the exec of (c, b) gives the result a fresh
    context gives after adding the surviving sources of c and binding the
    surviving values of b — whatever else the history did. *)
Theorem exec_equals_fresh_context fuel ops c b name :
  let w := fst (run_ops fuel empty_world ops) in
  exec_out fuel w c b name =
  exec_out fuel (fresh_world fuel (sget (srun fuel [] ops) c) (get_bind w b)) 0 0 name.
Proof.
  intros w. subst w.
  assert (R0 : refines fuel empty_world []) by (intros c0; split; [reflexivity|exact I]).
  destruct (history_refines fuel ops empty_world [] R0 c) as [Rg Rs].
  destruct (history_sorted fuel ops empty_world) as [_ Sb]; [split; intros x; exact I|].
  assert (Hc : all_compile fuel (srun fuel [] ops)).
  { apply (fold_left_invariant _ (all_compile fuel)); [|intros c0; constructor].
    intros sw o _. apply sstep_all_compile. }
  destruct (fresh_world_stores fuel _ _ Rs (Sb b) (Hc c)) as [A B].
  apply exec_function_of_stores; [rewrite Rg, A; reflexivity|rewrite B; reflexivity].
Qed.
