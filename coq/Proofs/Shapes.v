(* Proofs/Shapes.v — C05: the code the compiler emits for `||`, `&&`, `?:` and match IS the block the
   theorems of Blocks / Chains / MatchBlock talk about: resolving the label code of the construct gives
   chain_code / tern_code / match_code of the resolved operand blocks, for every expression. *)
From Coq Require Import ZArith List Bool Lia Arith.
From Rscel Require Import Base.Prims Model.Value Model.Ops Model.Interp Model.Ast Model.Compile Spec.WfCode Proofs.Asm Proofs.TreeAlg Proofs.CompileMonad Proofs.CompileWf
     Proofs.Blocks Proofs.Chains Proofs.MatchBlock.
Import ListNotations.
Local Open Scope nat_scope.

Fixpoint puses (c : pcode) : list nat :=
  match c with
  | [] => []
  | PJmp l :: r | PJmpCond _ l :: r => l :: puses r
  | _ :: r => puses r
  end.
Definition pdefs (c : pcode) : list nat := map fst (plabs c 0).
Definition pclosed (c : pcode) : Prop := NoDup (pdefs c) /\ forall l, In l (puses c) -> In l (pdefs c).

Lemma puses_app a b : puses (a ++ b) = puses a ++ puses b.
Proof. induction a as [|[i|l|w l|l] a IH]; cbn; auto; rewrite IH; reflexivity. Qed.

Lemma plabs_shift c : forall p, plabs c p = map (fun lq => (fst lq, p + snd lq)) (plabs c 0).
Proof.
  induction c as [|[i|l|w l|l] c IH]; intros p; cbn [plabs map]; try reflexivity;
    try (rewrite (IH (S p)), (IH 1), map_map; apply map_ext; intros [k q]; cbn; f_equal; lia).
  cbn. rewrite Nat.add_0_r. f_equal. apply IH.
Qed.
Lemma pdefs_at c p : map fst (plabs c p) = pdefs c.
Proof. unfold pdefs. rewrite (plabs_shift c p), map_map. reflexivity. Qed.
Lemma pdefs_app a b : pdefs (a ++ b) = pdefs a ++ pdefs b.
Proof. unfold pdefs. rewrite plabs_app, map_app. f_equal. apply pdefs_at. Qed.

(** jumps are relative: only the distance from the position to the label matters *)
Lemma resolve_at_rel c : forall p q locs locs',
  (forall l, In l (puses c) -> exists a b, find_label l locs = Some a /\ find_label l locs' = Some b /\
                                           (Z.of_nat a - Z.of_nat p = Z.of_nat b - Z.of_nat q)%Z) ->
  resolve_at c p locs = resolve_at c q locs'.
Proof.
  induction c as [|[i|l|w l|l] c IH]; intros p q locs locs' H; cbn [resolve_at].
  - reflexivity.
  - rewrite (IH (S p) (S q) locs locs'); [reflexivity|].
    intros l Hl. destruct (H l Hl) as (a & b & A & B & D). exists a, b. repeat split; auto. lia.
  - destruct (H l (or_introl eq_refl)) as (a & b & A & B & D). rewrite A, B.
    rewrite (IH (S p) (S q) locs locs').
    + destruct (resolve_at c (S q) locs'); [|reflexivity]. do 3 f_equal. lia.
    + intros l0 Hl. destruct (H l0 (or_intror Hl)) as (a0 & b0 & A0 & B0 & D0). exists a0, b0. repeat split; auto. lia.
  - destruct (H l (or_introl eq_refl)) as (a & b & A & B & D). rewrite A, B.
    rewrite (IH (S p) (S q) locs locs').
    + destruct (resolve_at c (S q) locs'); [|reflexivity]. do 3 f_equal. lia.
    + intros l0 Hl. destruct (H l0 (or_intror Hl)) as (a0 & b0 & A0 & B0 & D0). exists a0, b0. repeat split; auto. lia.
  - apply IH. exact H.
Qed.

Lemma resolve_at_length c : forall p locs r, resolve_at c p locs = Some r -> length r = psize c.
Proof.
  induction c as [|[i|l|w l|l] c IH]; intros p locs r; cbn [resolve_at psize].
  - intros E. injection E as <-. reflexivity.
  - destruct (resolve_at c (S p) locs) eqn:R; cbn; [|discriminate]. intros E. injection E as <-. cbn. f_equal. eauto.
  - destruct (find_label l locs); [|discriminate]. destruct (resolve_at c (S p) locs) eqn:R; [|discriminate].
    intros E. injection E as <-. cbn. f_equal. eauto.
  - destruct (find_label l locs); [|discriminate]. destruct (resolve_at c (S p) locs) eqn:R; [|discriminate].
    intros E. injection E as <-. cbn. f_equal. eauto.
  - eauto.
Qed.

Lemma resolve_unfold c : NoDup (pdefs c) -> resolve c = resolve_at c 0 (rev (plabs c 0)).
Proof.
  intros H. unfold resolve. rewrite label_locs_spec; rewrite app_nil_r; [reflexivity|exact H].
Qed.
Lemma resolve_length c r : resolve c = Some r -> length r = psize c.
Proof. unfold resolve. destruct (label_locs c 0 []); [|discriminate]. apply resolve_at_length. Qed.

Lemma nodup_app_l {A} (a b : list A) : NoDup (a ++ b) -> NoDup a.
Proof. induction a as [|x a IH]; cbn; intros H; [constructor|]. inversion H; subst. constructor; [|auto]. intros Hin. apply H2. apply in_or_app. auto. Qed.
Lemma nodup_app_r {A} (a b : list A) : NoDup (a ++ b) -> NoDup b.
Proof. induction a as [|x a IH]; cbn; intros H; [exact H|]. inversion H; subst. auto. Qed.

Section Whole.
  Variable whole : pcode.
  Hypothesis Hnd : NoDup (pdefs whole).
  Let locs := rev (plabs whole 0).

  Lemma find_in_whole pre c post l o : whole = pre ++ c ++ post -> In (l, o) (plabs c 0) ->
    find_label l locs = Some (psize pre + o).
  Proof.
    intros -> Hin. apply find_label_in.
    - unfold locs. rewrite map_rev. apply NoDup_rev. exact Hnd.
    - unfold locs. rewrite <- in_rev. rewrite plabs_app. apply in_or_app. right.
      rewrite plabs_app. apply in_or_app. left. rewrite plabs_shift. apply in_map_iff. exists (l, o). split; [|exact Hin].
      cbn. reflexivity.
  Qed.

  Lemma sub_nodup pre c post : whole = pre ++ c ++ post -> NoDup (pdefs c).
  Proof.
    intros E. rewrite E in Hnd. rewrite !pdefs_app in Hnd. apply nodup_app_r in Hnd. apply nodup_app_l in Hnd. exact Hnd.
  Qed.

  Lemma resolve_at_sub pre c post : whole = pre ++ c ++ post -> (forall l, In l (puses c) -> In l (pdefs c)) ->
    resolve_at c (psize pre) locs = resolve c.
  Proof.
    intros E Hc. rewrite (resolve_unfold c (sub_nodup _ _ _ E)). apply resolve_at_rel. intros l Hl.
    apply Hc in Hl. unfold pdefs in Hl. apply in_map_iff in Hl. destruct Hl as ([l' o] & El & Hin). cbn in El. subst l'.
    exists (psize pre + o), o. split; [eapply find_in_whole; eauto|]. split; [|lia].
    apply find_label_in; [|rewrite <- in_rev; exact Hin].
    rewrite map_rev. apply NoDup_rev. exact (sub_nodup _ _ _ E).
  Qed.
End Whole.

Definition resolves_to (p : pcode) (c : code) : Prop :=
  resolve p = Some c /\ forall l, In l (puses p) -> In l (pdefs p).

(** Label code read as instructions, jumps and labels with closed blocks in between, against the code
    it assembles to: [asm p pos c us ds] places [p] at code position [pos].  Positions are those of the
    assembled code, so a closed block counts with the length of its own code.  [ds] lists the labels
    met between the blocks with their positions, [us] the targets of the jumps between the blocks with
    the positions the distances were computed from; when every use is a definition, [p] resolves to [c]. *)
Inductive asm : pcode -> nat -> code -> list (nat * nat) -> list (nat * nat) -> Prop :=
| asm_nil pos : asm [] pos [] [] []
| asm_bc i p pos c us ds : asm p (S pos) c us ds -> asm (PBc i :: p) pos (i :: c) us ds
| asm_jmp l q dist p pos c us ds : dist = (Z.of_nat q - Z.of_nat (S pos))%Z -> asm p (S pos) c us ds ->
    asm (PJmp l :: p) pos (IJmp dist :: c) ((l, q) :: us) ds
| asm_jc w l q dist p pos c us ds : dist = (Z.of_nat q - Z.of_nat (S pos))%Z -> asm p (S pos) c us ds ->
    asm (PJmpCond w l :: p) pos (IJmpCond w dist :: c) ((l, q) :: us) ds
| asm_lab l p pos c us ds : asm p pos c us ds -> asm (PLabel l :: p) pos c us ((l, pos) :: ds)
| asm_blk b bc p pos c us ds : resolves_to b bc -> asm p (pos + length bc) c us ds ->
    asm (b ++ p) pos (bc ++ c) us ds.

Lemma asm_resolve_at whole (Hnd : NoDup (pdefs whole)) p pos c us ds : asm p pos c us ds ->
  forall pre, whole = pre ++ p -> psize pre = pos ->
  (forall l q, In (l, q) ds -> find_label l (rev (plabs whole 0)) = Some q) /\
  ((forall l q, In (l, q) us -> find_label l (rev (plabs whole 0)) = Some q) ->
   resolve_at p pos (rev (plabs whole 0)) = Some c).
Proof.
  induction 1 as [pos|i p pos c us ds _ IH|l q dist p pos c us ds -> _ IH|w l q dist p pos c us ds -> _ IH
                  |l p pos c us ds _ IH|b bc p pos c us ds [Rb Cb] _ IH]; intros pre E Hp.
  - split; [intros l q []|reflexivity].
  - destruct (IH (pre ++ [PBc i])) as [D R]; [rewrite <- app_assoc; exact E|rewrite psize_app; cbn; lia|].
    split; [exact D|]. intros U. cbn [resolve_at]. rewrite (R U). reflexivity.
  - destruct (IH (pre ++ [PJmp l])) as [D R]; [rewrite <- app_assoc; exact E|rewrite psize_app; cbn; lia|].
    split; [exact D|]. intros U. cbn [resolve_at]. rewrite (U l q (or_introl eq_refl)), R; [reflexivity|].
    intros l0 q0 Hin. apply U. right. exact Hin.
  - destruct (IH (pre ++ [PJmpCond w l])) as [D R]; [rewrite <- app_assoc; exact E|rewrite psize_app; cbn; lia|].
    split; [exact D|]. intros U. cbn [resolve_at]. rewrite (U l q (or_introl eq_refl)), R; [reflexivity|].
    intros l0 q0 Hin. apply U. right. exact Hin.
  - destruct (IH (pre ++ [PLabel l])) as [D R]; [rewrite <- app_assoc; exact E|rewrite psize_app; cbn; lia|].
    split; [|exact R]. intros l0 q0 [Eq|Hin]; [|exact (D l0 q0 Hin)]. injection Eq as <- <-.
    rewrite (find_in_whole whole Hnd pre [PLabel l] p l 0 E (or_introl eq_refl)). f_equal. lia.
  - pose proof (resolve_length _ _ Rb) as Lb.
    destruct (IH (pre ++ b)) as [D R]; [rewrite <- app_assoc; exact E|rewrite psize_app; lia|].
    split; [exact D|]. intros U. subst pos.
    rewrite resolve_at_app, (resolve_at_sub whole Hnd pre b p E Cb), Rb, <- Lb, (R U). reflexivity.
Qed.

Theorem asm_resolves p c us ds : asm p 0 c us ds -> incl us ds -> NoDup (pdefs p) -> resolve p = Some c.
Proof.
  intros H Hi Hnd. destruct (asm_resolve_at p Hnd _ _ _ _ _ H [] eq_refl eq_refl) as [D R].
  rewrite (resolve_unfold _ Hnd). apply R. intros l q Hin. apply D, Hi, Hin.
Qed.

Definition plink (w : bool) (op : instr) (L : nat) (p : pcode) : pcode :=
  [PBc ITest; PBc IDup; PJmpCond w L] ++ p ++ [PBc op].
Fixpoint plinks (w : bool) (op : instr) (L : nat) (ps : list pcode) : pcode :=
  match ps with [] => [] | p :: r => plink w op L p ++ plinks w op L r end.

Lemma links_asm w op L : forall ps cs, Forall2 resolves_to ps cs -> forall pos q rest c us ds,
  q = pos + length (links w op cs) -> asm rest q c us ds ->
  asm (plinks w op L ps ++ rest) pos (links w op cs ++ c) (repeat (L, q) (length ps) ++ us) ds.
Proof.
  induction 1 as [|p c0 ps cs R _ IH]; intros pos q rest c us ds Hq Hr.
  - cbn in Hq |- *. rewrite Nat.add_0_r in Hq. subst q. exact Hr.
  - cbn [plinks links length repeat] in Hq |- *. unfold plink. rewrite !app_length in Hq. cbn [length] in Hq.
    rewrite <- !app_assoc. cbn [app].
    apply asm_bc, asm_bc, asm_jc; [lia|]. apply (asm_blk p c0); [exact R|]. apply asm_bc, (IH _ q); [lia|exact Hr].
Qed.

Lemma plinks_app w op L a b : plinks w op L (a ++ b) = plinks w op L a ++ plinks w op L b.
Proof. induction a as [|p r IH]; [reflexivity|]. cbn [app plinks]. rewrite IH, app_assoc. reflexivity. Qed.

Theorem chain_resolves w op L p1 ps c1 cs :
  resolves_to p1 c1 -> Forall2 resolves_to ps cs -> NoDup (pdefs (p1 ++ plinks w op L ps ++ [PLabel L])) ->
  resolve (p1 ++ plinks w op L ps ++ [PLabel L]) = Some (chain_code w op c1 cs).
Proof.
  intros R1 F Hnd. unfold chain_code. rewrite <- (app_nil_r (links w op cs)).
  eapply asm_resolves.
  - apply (asm_blk p1 c1); [exact R1|]. eapply links_asm; [exact F|reflexivity|apply asm_lab, asm_nil].
  - rewrite app_nil_r. intros x Hx. apply repeat_spec in Hx. left. symmetry. exact Hx.
  - exact Hnd.
Qed.

Lemma resolve_at_some c : forall p locs, (forall l, In l (puses c) -> exists q, find_label l locs = Some q) ->
  exists r, resolve_at c p locs = Some r.
Proof.
  induction c as [|[i|l|w l|l] c IH]; intros p locs H; cbn [resolve_at].
  - eexists. reflexivity.
  - destruct (IH (S p) locs H) as (r & ->). eexists. reflexivity.
  - destruct (H l (or_introl eq_refl)) as (q & ->). destruct (IH (S p) locs (fun l0 Hl => H l0 (or_intror Hl))) as (r & ->).
    eexists. reflexivity.
  - destruct (H l (or_introl eq_refl)) as (q & ->). destruct (IH (S p) locs (fun l0 Hl => H l0 (or_intror Hl))) as (r & ->).
    eexists. reflexivity.
  - apply IH. exact H.
Qed.

Lemma closed_resolves p : NoDup (pdefs p) -> (forall l, In l (puses p) -> In l (pdefs p)) -> exists c, resolves_to p c.
Proof.
  intros Hn Hc. destruct (resolve_at_some p 0 (rev (plabs p 0))) as (r & R).
  - intros l Hl. apply Hc in Hl. unfold pdefs in Hl. apply in_map_iff in Hl. destruct Hl as ([l' o] & El & Hin). cbn in El. subst l'.
    exists o. apply find_label_in; [rewrite map_rev; apply NoDup_rev; exact Hn|rewrite <- in_rev; exact Hin].
  - exists r. split; [rewrite (resolve_unfold _ Hn); exact R|exact Hc].
Qed.

Lemma puses_of_code bc : puses (of_code bc) = [].
Proof. unfold of_code. induction bc as [|i r IH]; cbn; auto. Qed.
Lemma puses_flat t : puses (flat t) = tuses t.
Proof.
  induction t as [|i|l|w l|l|bc Hb|a IHa b IHb]; cbn [flat tuses puses]; try reflexivity.
  - apply puses_of_code.
  - rewrite puses_app. congruence.
Qed.
Lemma pdefs_flat t : pdefs (flat t) = tdefs t.
Proof. unfold pdefs, tdefs. rewrite plabs_flat. reflexivity. Qed.

Record closed_in (n n' : nat) (p : pcode) (c : code) : Prop := mkCI {
  ci_res : resolves_to p c;
  ci_nodup : NoDup (pdefs p);
  ci_range : forall l, In l (pdefs p) -> n <= l < n' }.

Lemma eff_closed_in n n' t a b : effI [] n n' t a b -> exists c, closed_in n n' (flat t) c.
Proof.
  intros (_ & [N Fw _] & [D Rg]).
  assert (Hc : forall l, In l (puses (flat t)) -> In l (pdefs (flat t))).
  { intros l Hl. rewrite puses_flat in Hl. rewrite pdefs_flat. destruct (tfwd_uses t _ Fw l Hl) as [Hd|[]]. exact Hd. }
  assert (Hn : NoDup (pdefs (flat t))) by (rewrite pdefs_flat; exact D).
  destruct (closed_resolves _ Hn Hc) as (c & R). exists c. split; [exact R|exact Hn|].
  intros l Hl. rewrite pdefs_flat in Hl. exact (Rg l Hl).
Qed.

Lemma good_closed n n' nv : good n n' nv -> exists c, closed_in n n' (into_bytecode nv) c.
Proof. intros (t & F & E). rewrite <- F. exact (eff_closed_in _ _ _ _ _ E). Qed.

(** operands compiled one after the other, each with its own run of labels *)
Inductive compiled_seq {A} (f : A -> C cprog) : nat -> list A -> list cprog -> nat -> Prop :=
| cs_nil n : compiled_seq f n [] [] n
| cs_cons n a n1 cp r cps n2 : f a n = COk cp n1 -> compiled_seq f n1 r cps n2 ->
    compiled_seq f n (a :: r) (cp :: cps) n2.

Lemma compiled_seq_snoc {A} (f : A -> C cprog) n xs cps n1 a cp n2 :
  compiled_seq f n xs cps n1 -> f a n1 = COk cp n2 -> compiled_seq f n (xs ++ [a]) (cps ++ [cp]) n2.
Proof. induction 1; intros Hlast; cbn [app]; econstructor; eauto. constructor. Qed.

Definition bc_of (c : cprog) : pcode := into_bytecode (cp_node c).

Section Seq.
  Context {A : Type} (f : A -> C cprog).
  Hypothesis Hf : forall a n cp n', f a n = COk cp n' -> good n n' (cp_node cp).

  Lemma seq_closed : forall n xs cps n', compiled_seq f n xs cps n' -> exists cs, Forall2 resolves_to (map bc_of cps) cs.
  Proof.
    induction 1 as [n|n a n1 cp r cps n2 Ha _ (cs & F)]; [exists []; constructor|].
    destruct (good_closed _ _ _ (Hf _ _ _ _ Ha)) as (c & [Rc _ _]). exists (c :: cs). constructor; assumption.
  Qed.
End Seq.

Fixpoint cor_ops (e : cor) : cand * list cand :=
  match e with OrUn _ u => (u, []) | OrBin _ l r => (fst (cor_ops l), snd (cor_ops l) ++ [r]) end.
Fixpoint cand_ops (e : cand) : rel * list rel :=
  match e with AndUn _ u => (u, []) | AndBin _ l r => (fst (cand_ops l), snd (cand_ops l) ++ [r]) end.

Section Gen.
  Variable fuel : nat.
  Variable rec_expr : expr -> C cprog.
  Hypothesis Hrec : forall e n cp n', rec_expr e n = COk cp n' -> good n n' (cp_node cp).

  Lemma c_cand_chain_shape : forall e L n cp n', c_cand_chain fuel rec_expr e L n = COk cp n' ->
    exists cph cpt, compiled_seq (c_rel fuel rec_expr) n (fst (cand_ops e) :: snd (cand_ops e)) (cph :: cpt) n' /\
      bc_of cp = bc_of cph ++ plinks false IAnd L (map bc_of cpt) /\
      (snd (cand_ops e) <> [] -> is_const (cp_node cp) = false).
  Proof.
    induction e as [r l IH rr|r u]; intros L n cp n' H; cbn [c_cand_chain] in H.
    - apply cbind2_ok in H. destruct H as (cl & n1 & cr & Hl & Hr & ->).
      destruct (IH _ _ _ _ Hl) as (cph & cpt & S & B & _).
      exists cph, (cpt ++ [cr]). cbn [cand_ops fst snd]. split; [|split].
      + apply (compiled_seq_snoc _ _ (fst (cand_ops l) :: snd (cand_ops l)) (cph :: cpt) n1 rr cr n' S Hr).
      + unfold bc_of at 1. cbn [cp_node into_bytecode]. fold (bc_of cl). rewrite B, map_app, plinks_app. cbn [map plinks].
        unfold plink. fold (bc_of cr). rewrite app_nil_r, <- !app_assoc. reflexivity.
      + reflexivity.
    - exists cp, []. cbn [cand_ops fst snd map plinks]. split; [econstructor; [exact H|constructor]|].
      rewrite app_nil_r. split; [reflexivity|]. intros E. contradiction.
  Qed.

  Lemma c_cor_chain_shape : forall e L n cp n', c_cor_chain fuel rec_expr e L n = COk cp n' ->
    exists cph cpt, compiled_seq (c_cand fuel rec_expr) n (fst (cor_ops e) :: snd (cor_ops e)) (cph :: cpt) n' /\
      bc_of cp = bc_of cph ++ plinks true IOr L (map bc_of cpt) /\
      (snd (cor_ops e) <> [] -> is_const (cp_node cp) = false).
  Proof.
    induction e as [r l IH rr|r u]; intros L n cp n' H; cbn [c_cor_chain] in H.
    - apply cbind2_ok in H. destruct H as (cl & n1 & cr & Hl & Hr & ->).
      destruct (IH _ _ _ _ Hl) as (cph & cpt & S & B & _).
      exists cph, (cpt ++ [cr]). cbn [cor_ops fst snd]. split; [|split].
      + apply (compiled_seq_snoc _ _ (fst (cor_ops l) :: snd (cor_ops l)) (cph :: cpt) n1 rr cr n' S Hr).
      + unfold bc_of at 1. cbn [cp_node into_bytecode]. fold (bc_of cl). rewrite B, map_app, plinks_app. cbn [map plinks].
        unfold plink. fold (bc_of cr). rewrite app_nil_r, <- !app_assoc. reflexivity.
      + reflexivity.
    - exists cp, []. cbn [cor_ops fst snd map plinks]. split; [econstructor; [exact H|constructor]|].
      rewrite app_nil_r. split; [reflexivity|]. intros E. contradiction.
  Qed.

  Lemma chain_of_seq {A} (f : A -> C cprog) (Hf : forall a n cp n', f a n = COk cp n' -> good n n' (cp_node cp))
        w op L x xs cph cpt n' (cp : cprog) :
    compiled_seq f (S L) (x :: xs) (cph :: cpt) n' ->
    bc_of cp = bc_of cph ++ plinks w op L (map bc_of cpt) -> is_const (cp_node cp) = false ->
    NoDup (pdefs (bc_of (append_if_bytecode cp [PLabel L]))) ->
    exists ch cts, resolve (bc_of cph) = Some ch /\
                   Forall2 (fun c code => resolve (bc_of c) = Some code) cpt cts /\
                   resolve (bc_of (append_if_bytecode cp [PLabel L])) = Some (chain_code w op ch cts).
  Proof.
    intros S B K Dw. inversion S as [|? ? n1 ? ? ? ? Hh St]; subst.
    destruct (good_closed _ _ _ (Hf _ _ _ _ Hh)) as (ch & [Rh _ _]). destruct (seq_closed f Hf _ _ _ _ St) as (cts & F).
    exists ch, cts. split; [exact (proj1 Rh)|]. split.
    - clear -F. revert cts F. induction cpt as [|c r IH]; intros cts F; inversion F; subst; constructor.
      + match goal with H : resolves_to _ _ |- _ => exact (proj1 H) end.
      + apply IH. assumption.
    - replace (bc_of (append_if_bytecode cp [PLabel L])) with (bc_of cp ++ [PLabel L]) in *
        by (unfold append_if_bytecode, bc_of; destruct (cp_node cp); [reflexivity|discriminate K]).
      rewrite B, <- app_assoc in *. apply chain_resolves; assumption.
  Qed.

  (** a || b || ... with at least two operands: the emitted program is the proved chain block over the
      emitted operand programs *)
  Theorem or_compiles_to_chain e n cp n' : c_cor fuel rec_expr e n = COk cp n' -> snd (cor_ops e) <> [] ->
    exists cph cpt ch cts,
      compiled_seq (c_cand fuel rec_expr) (S n) (fst (cor_ops e) :: snd (cor_ops e)) (cph :: cpt) n' /\
      resolve (bc_of cph) = Some ch /\ Forall2 (fun c code => resolve (bc_of c) = Some code) cpt cts /\
      resolve (bc_of cp) = Some (or_chain_code ch cts).
  Proof.
    intros H Hne. destruct (good_closed _ _ _ (c_cor_good fuel rec_expr Hrec _ _ _ _ H)) as (cw & [_ Dw _]).
    unfold c_cor in H. rewrite cbind_new_label in H.
    apply cbind_ret_ok in H. destruct H as (c & Hc & ->).
    destruct (c_cor_chain_shape _ _ _ _ _ Hc) as (cph & cpt & S & B & Hk).
    destruct (chain_of_seq _ (c_cand_good fuel rec_expr Hrec) true IOr _ _ _ _ _ _ _ S B (Hk Hne) Dw) as (ch & cts & R1 & F & R).
    exists cph, cpt, ch, cts. split; [exact S|]. split; [exact R1|]. split; [exact F|exact R].
  Qed.

  Theorem and_compiles_to_chain e n cp n' : c_cand fuel rec_expr e n = COk cp n' -> snd (cand_ops e) <> [] ->
    exists cph cpt ch cts,
      compiled_seq (c_rel fuel rec_expr) (S n) (fst (cand_ops e) :: snd (cand_ops e)) (cph :: cpt) n' /\
      resolve (bc_of cph) = Some ch /\ Forall2 (fun c code => resolve (bc_of c) = Some code) cpt cts /\
      resolve (bc_of cp) = Some (and_chain_code ch cts).
  Proof.
    intros H Hne. destruct (good_closed _ _ _ (c_cand_good fuel rec_expr Hrec _ _ _ _ H)) as (cw & [_ Dw _]).
    unfold c_cand in H. rewrite cbind_new_label in H.
    apply cbind_ret_ok in H. destruct H as (c & Hc & ->).
    destruct (c_cand_chain_shape _ _ _ _ _ Hc) as (cph & cpt & S & B & Hk).
    destruct (chain_of_seq _ (c_rel_good fuel rec_expr Hrec) false IAnd _ _ _ _ _ _ _ S B (Hk Hne) Dw) as (ch & cts & R1 & F & R).
    exists cph, cpt, ch, cts. split; [exact S|]. split; [exact R1|]. split; [exact F|exact R].
  Qed.
End Gen.

Definition ptern (A E : nat) (cb ct cf : pcode) : pcode :=
  cb ++ [PBc ITest; PBc IDup; PJmpCond false A; PBc IPop] ++ ct ++
  [PJmp E; PLabel A; PBc IDup; PBc INot; PJmpCond false E; PBc IPop] ++ cf ++ [PLabel E].

Theorem tern_resolves A E cb ct cf c1 c2 c3 :
  resolves_to cb c1 -> resolves_to ct c2 -> resolves_to cf c3 ->
  NoDup (pdefs (ptern A E cb ct cf)) ->
  resolve (ptern A E cb ct cf) = Some (tern_code c1 c2 c3).
Proof.
  intros R1 R2 R3 Hnd. unfold ptern, tern_code. rewrite <- (app_nil_r c3) at 3.
  set (a := length c1 + length c2 + 5). set (e := a + length c3 + 4).
  eapply asm_resolves.
  - apply (asm_blk cb c1); [exact R1|]. cbn [app].
    apply asm_bc, asm_bc, (asm_jc _ _ a); [lia|]. apply asm_bc, (asm_blk ct c2); [exact R2|]. cbn [app].
    apply (asm_jmp _ e); [lia|]. apply asm_lab, asm_bc, asm_bc, (asm_jc _ _ e); [lia|].
    apply asm_bc, (asm_blk cf c3); [exact R3|]. apply asm_lab, asm_nil.
  - intros x [<-|[<-|[<-|[]]]]; [left|right; left|right; left]; f_equal; lia.
  - exact Hnd.
Qed.

(** one case: pattern code, arm code, the label after the case *)
Fixpoint pcases (AM : nat) (parts : list (pcode * pcode * nat)) : pcode :=
  match parts with
  | [] => []
  | (pb, arm, AC) :: r =>
      [PBc IDup] ++ pb ++ [PJmpCond false AC] ++ (PBc IPop :: arm) ++ [PJmp AM; PLabel AC] ++ pcases AM r
  end.
Definition ptail (AM : nat) : pcode := [PBc IPop; PBc (IPush VNull); PLabel AM].
Definition pmatch (AM : nat) (cc : pcode) (parts : list (pcode * pcode * nat)) : pcode :=
  cc ++ pcases AM parts ++ ptail AM.

Definition part_resolves (pt : pcode * pcode * nat) (c : code * code) : Prop :=
  resolves_to (fst (fst pt)) (fst c) /\ resolves_to (snd (fst pt)) (snd c).

(** the cases of a match: each jumps over itself to the label after it, and after its arm to the end
    of the match, two instructions after the position [q] that follows the cases *)
Lemma cases_asm AM : forall parts cs, Forall2 part_resolves parts cs -> forall pos q rest c us ds,
  q = pos + length (cases_code cs) -> asm rest q c us ds ->
  exists us' ds', asm (pcases AM parts ++ rest) pos (cases_code cs ++ c) (us' ++ us) (ds' ++ ds) /\
                  incl us' ((AM, S (S q)) :: ds').
Proof.
  induction 1 as [|[[pb arm] AC] [cpb carm] parts cs [R1 R2] _ IH]; intros pos q rest c us ds Hq Hr.
  - cbn in Hq. rewrite Nat.add_0_r in Hq. subst q. exists [], []. split; [exact Hr|intros x []].
  - cbn [fst snd] in R1, R2. cbn [cases_code] in Hq. rewrite !app_length in Hq. cbn [length] in Hq.
    set (nxt := S (S (S (S pos + length cpb)) + length carm)).
    destruct (IH nxt q rest c us ds ltac:(unfold nxt; lia) Hr) as (us' & ds' & Ha & Hi).
    exists ((AC, nxt) :: (AM, S (S q)) :: us'), ((AC, nxt) :: ds'). split.
    + cbn [pcases cases_code]. rewrite <- !app_assoc. cbn [app].
      apply asm_bc, (asm_blk pb cpb); [exact R1|]. apply (asm_jc _ _ nxt); [unfold nxt; lia|].
      apply asm_bc, (asm_blk arm carm); [exact R2|]. apply (asm_jmp _ (S (S q))); [lia|]. apply asm_lab. exact Ha.
    + intros x [<-|[<-|Hx]]; [right; left; reflexivity|left; reflexivity|].
      destruct (Hi x Hx) as [<-|Hd]; [left; reflexivity|right; right; exact Hd].
Qed.

Theorem match_resolves AM cc parts c0 cs :
  resolves_to cc c0 -> Forall2 part_resolves parts cs ->
  NoDup (pdefs (pmatch AM cc parts)) ->
  resolve (pmatch AM cc parts) = Some (match_code c0 cs).
Proof.
  intros R0 F Hnd. unfold pmatch, match_code, ptail, tail_code.
  set (q := 0 + length c0 + length (cases_code cs)).
  assert (T : asm [PBc IPop; PBc (IPush VNull); PLabel AM] q [IPop; IPush VNull] [] [(AM, S (S q))])
    by apply asm_bc, asm_bc, asm_lab, asm_nil.
  destruct (cases_asm AM parts cs F _ q _ _ _ _ eq_refl T) as (us' & ds' & Ha & Hi).
  eapply asm_resolves.
  - apply (asm_blk cc c0); [exact R0|exact Ha].
  - rewrite app_nil_r. intros x Hx. destruct (Hi x Hx) as [<-|Hd]; apply in_or_app; [right; left; reflexivity|left; exact Hd].
  - exact Hnd.
Qed.

(** labels of the cases, as the second pass allocates them *)
Fixpoint with_labels (l : list (pcode * pcode)) (q : nat) : list (pcode * pcode * nat) :=
  match l with [] => [] | (pb, arm) :: r => (pb, arm, q) :: with_labels r (S q) end.

Section Gen2.
  Variable fuel : nat.
  Variable rec_expr : expr -> C cprog.
  Hypothesis Hrec : forall e n cp n', rec_expr e n = COk cp n' -> good n n' (cp_node cp).

  (** c ? t : f.  A condition that is not a constant gives the proved conditional block over the three
      emitted programs; a constant condition selects at compile time exactly as the block would:
      an error stays, otherwise its truthiness picks the branch. *)
  Theorem ternary_compiles_to_block r c t f n cp n' :
    c_expr_body fuel rec_expr (ETernary r c t f) n = COk cp n' ->
    exists cc ct cf n1 n2 n3,
      c_cor fuel rec_expr c n = COk cc n1 /\ c_cor fuel rec_expr t n1 = COk ct n2 /\ rec_expr f n2 = COk cf n3 /\
      match cp_node cc with
      | NConst v => cp_node cp = if is_err v then NConst v else if is_truthy v then cp_node ct else cp_node cf
      | NBytecode _ =>
          exists c1 c2 c3, resolve (bc_of cc) = Some c1 /\ resolve (bc_of ct) = Some c2 /\ resolve (bc_of cf) = Some c3 /\
                           resolve (bc_of cp) = Some (tern_code c1 c2 c3)
      end.
  Proof.
    intros H. destruct (good_closed _ _ _ (c_expr_body_good fuel rec_expr Hrec _ _ _ _ H)) as (cw & [_ Dw _]).
    cbn [c_expr_body] in H. cinv H as cc n1 Hc. cinv H as ct n2 Ht. cinv H as cf n3 Hf.
    exists cc, ct, cf, n1, n2, n3. split; [exact Hc|]. split; [exact Ht|]. split; [exact Hf|].
    destruct (good_closed _ _ _ (c_cor_good fuel rec_expr Hrec _ _ _ _ Hc)) as (c1 & [Q1 _ _]).
    destruct (good_closed _ _ _ (c_cor_good fuel rec_expr Hrec _ _ _ _ Ht)) as (c2 & [Q2 _ _]).
    destruct (good_closed _ _ _ (Hrec _ _ _ _ Hf)) as (c3 & [Q3 _ _]).
    unfold bc_of in *. destruct (cp_node cc) as [cb|v] eqn:Ec.
    - rewrite !cbind_new_label in H.
      injection H as <- <-. exists c1, c2, c3. split; [exact (proj1 Q1)|]. split; [exact (proj1 Q2)|].
      split; [exact (proj1 Q3)|]. cbn [cp_node into_bytecode] in *.
      exact (tern_resolves n3 (S n3) cb _ _ c1 c2 c3 Q1 Q2 Q3 Dw).
    - destruct (is_err v); [|destruct (is_truthy v)]; injection H as <- <-; reflexivity.
  Qed.

  Inductive compiled_cases : nat -> list mcase -> list (pcode * cprog) -> nat -> Prop :=
  | cc_nil m : compiled_cases m [] [] m
  | cc_cons m rg p arm pb pps m1 ca m2 r rest m3 :
      c_pattern fuel rec_expr p m = COk (pb, pps) m1 -> rec_expr arm m1 = COk ca m2 ->
      compiled_cases m2 r rest m3 -> compiled_cases m (MCase rg p arm :: r) ((pb, ca) :: rest) m3.

  Definition pa_of (pc : pcode * cprog) : pcode * pcode := (fst pc, bc_of (snd pc)).

  Lemma cases_closed : forall m l cps m', compiled_cases m l cps m' ->
    exists cs, Forall2 (fun pc co => resolves_to (fst pc) (fst co) /\ resolves_to (bc_of (snd pc)) (snd co)) cps cs.
  Proof.
    induction 1 as [m|m rg p arm pb pps m1 ca m2 r rest m3 Hp Ha _ (cs & F)]; [exists []; constructor|].
    destruct (c_pattern_good fuel rec_expr Hrec _ _ _ _ _ Hp) as (tp & Fp & Ep).
    destruct (eff_closed_in _ _ _ _ _ Ep) as (cpb & [Qp _ _]). rewrite Fp in Qp.
    destruct (good_closed _ _ _ (Hrec _ _ _ _ Ha)) as (carm & [Qa _ _]).
    exists ((cpb, carm) :: cs). constructor; [split; assumption|exact F].
  Qed.

  Lemma with_labels_resolves : forall cps cs q,
    Forall2 (fun pc co => resolves_to (fst pc) (fst co) /\ resolves_to (bc_of (snd pc)) (snd co)) cps cs ->
    Forall2 part_resolves (with_labels (map pa_of cps) q) cs.
  Proof.
    induction cps as [|[pb ca] r IH]; intros cs q F; inversion F; subst; cbn [map with_labels pa_of fst snd]; constructor.
    - assumption.
    - apply IH. assumption.
  Qed.

  (** match: the emitted program is the proved match block over the emitted scrutinee, pattern and arm
      programs, case by case in source order *)
  Theorem match_compiles_to_block r c cases n cp n' :
    c_expr_body fuel rec_expr (EMatch r c cases) n = COk cp n' ->
    exists cc n1 cps n2 c0 cs,
      rec_expr c n = COk cc n1 /\ compiled_cases n1 cases cps n2 /\
      resolve (bc_of cc) = Some c0 /\
      Forall2 (fun pc co => resolve (fst pc) = Some (fst co) /\ resolve (bc_of (snd pc)) = Some (snd co)) cps cs /\
      resolve (bc_of cp) = Some (match_code c0 cs).
  Proof.
    intros H. destruct (good_closed _ _ _ (c_expr_body_good fuel rec_expr Hrec _ _ _ _ H)) as (cw & [_ Dw _]).
    cbn [c_expr_body] in H. cinv H as cc n1 Hc. cinv H as [parts pps] n2 Hp.
    destruct (good_closed _ _ _ (Hrec _ _ _ _ Hc)) as (c0 & [Q0 _ _]).
    assert (G1 : exists cps, compiled_cases n1 cases cps n2 /\
                             parts = map (fun pa => (fst pa, PBc IPop :: snd pa)) (map pa_of cps)).
    { clear -Hp. revert n1 parts pps Hp. induction cases as [|[rc p arm] l IH]; intros m parts pps H0.
      - injection H0 as <- <- <-. exists []. split; [constructor|reflexivity].
      - cinv H0 as [pc pp] m1 Hpat. cinv H0 as ca m2 Harm. cinv H0 as [rest prest] m3 Hr. injection H0 as <- <- <-.
        destruct (IH _ _ _ Hr) as (cps & Cc & ->). exists ((pc, ca) :: cps). split; [econstructor; eauto|reflexivity]. }
    destruct G1 as (cps & Cc & Eparts). cbn [fst snd] in *. clear Hp.
    destruct (cases_closed _ _ _ _ Cc) as (cs & F).
    rewrite cbind_new_label in H.
    apply cbind_ret_ok in H. destruct H as (body & Hb & ->).
    match type of Hb with ?g parts (S n2) = _ =>
      assert (G2 : forall l q bd q', g (map (fun pa => (fst pa, PBc IPop :: snd pa)) l) q = COk bd q' ->
                     bd = pcases n2 (with_labels l q)) end.
    { clear. induction l as [|[pb arm] l IH]; intros q bd q' H0; cbn [map fst snd] in H0.
      - injection H0 as <- <-. reflexivity.
      - rewrite cbind_new_label in H0.
        apply cbind_ret_ok in H0. destruct H0 as (rest & Hr & ->).
        rewrite (IH _ _ _ Hr). cbn [with_labels pcases]. reflexivity. }
    rewrite Eparts in Hb. apply G2 in Hb. subst body. clear G2.
    exists cc, n1, cps, n2, c0, cs. split; [exact Hc|]. split; [exact Cc|]. split; [exact (proj1 Q0)|]. split.
    - clear -F. induction F as [|pc co cps cs [[A _] [B _]] _ IH]; constructor; auto.
    - unfold bc_of at 1. cbn [cp_node into_bytecode]. fold (bc_of cc).
      change (bc_of cc ++ pcases n2 (with_labels (map pa_of cps) (S n2)) ++ [PBc IPop; PBc (IPush VNull); PLabel n2])
        with (pmatch n2 (bc_of cc) (with_labels (map pa_of cps) (S n2))).
      apply match_resolves; [exact Q0|apply with_labels_resolves; exact F|exact Dw].
  Qed.
End Gen2.

(** the two halves together, for ||: whatever the operands are, the emitted program of a chain of two
    or more operands runs as the chain semantics says over the emitted operand programs *)
Theorem or_program_evaluates f e n cp n' :
  c_cor f (c_expr f) e n = COk cp n' -> snd (cor_ops e) <> [] ->
  exists code ch cts, resolve (bc_of cp) = Some code /\ length cts = length (snd (cor_ops e)) /\
    forall rs E d lg sva lg1 va lg2 res lg3,
      pushes rs E d ch lg sva lg1 -> resolves rs E d sva lg1 va lg2 ->
      chain_run rs E d true or_ va lg2 cts res lg3 ->
      forall st, exists fu, loop rs fu E d code O st lg = (ROk (SVal res :: st), lg3).
Proof.
  intros H Hne. destruct (or_compiles_to_chain f _ (c_expr_good f) _ _ _ _ H Hne) as (cph & cpt & ch & cts & S & R1 & F & R).
  exists (or_chain_code ch cts), ch, cts. split; [exact R|].
  assert (Len : length cts = length (snd (cor_ops e))).
  { inversion S as [|? ? ? ? ? ? ? _ St]; subst. clear -St F.
    assert (L1 : length cpt = length cts) by (clear -F; induction F; cbn; auto). rewrite <- L1.
    remember (snd (cor_ops e)) as xs. clear Heqxs L1 F. induction St; cbn; auto. }
  split; [exact Len|]. intros rs E d lg sva lg1 va lg2 res lg3 Hp Hr Hrun. apply or_chain_evaluates with (sva := sva) (lg1 := lg1) (va := va) (lg2 := lg2); auto.
  intros ->. cbn in Len. destruct (snd (cor_ops e)); [contradiction|discriminate].
Qed.
