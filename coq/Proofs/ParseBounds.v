(* Proofs/ParseBounds.v — C18: positions through the parser.  The tokenizer hands out tokens in order; every
   node of a parsed tree lies between the position where its parser started and the position where it
   stopped; hence bracketed nodes contain their contents and siblings follow one another without overlap. *)
From Coq Require Import ZArith List Bool Lia.
From Rscel Require Import Base.Prims Base.F64 Base.Text Model.Value Model.Funcs Model.Lexer Model.Ast Model.Parser
     Proofs.Spans Proofs.LexFwd Proofs.ParseCases.
Import ListNotations.
Open Scope Z_scope.

(** where the input that has not been consumed begins *)
Definition front (t : tokenizer) : loc :=
  match tz_cur t with Some x => r_start (t_loc x) | None => sc_loc (tz_scan t) end.
(** a buffered token ends where the scanner stands *)
Definition tzinv (t : tokenizer) : Prop :=
  match tz_cur t with Some x => well_ordered (t_loc x) /\ r_end (t_loc x) = sc_loc (tz_scan t) | None => True end.

Lemma tzinv_init src : tzinv (tz_init src).
Proof. exact I. Qed.

(** how far the scanner has read (a buffered token included) *)
Definition reach (t : tokenizer) : loc := sc_loc (tz_scan t).

Lemma front_le_reach t : tzinv t -> loc_le (front t) (reach t).
Proof. unfold tzinv, front, reach. destruct (tz_cur t) as [x|]; [intros [W E]; rewrite <- E; exact W|intros _; apply loc_le_refl]. Qed.

(** from one state of the tokenizer to a later one *)
Definition st (t t' : tokenizer) : Prop := tzinv t' /\ loc_le (front t) (front t') /\ loc_le (reach t) (reach t').

Lemma st_refl t : tzinv t -> st t t.
Proof. intros H. split; [exact H|split; apply loc_le_refl]. Qed.
Lemma st_trans a b c : st a b -> st b c -> st a c.
Proof. intros (I1 & F1 & R1) (I2 & F2 & R2). split; [exact I2|]. split; eapply loc_le_trans; eauto. Qed.

(** a span between two positions *)
Definition bnd (lo : loc) (r : range) (hi : loc) : Prop := loc_le lo (r_start r) /\ well_ordered r /\ loc_le (r_end r) hi.

Lemma bnd_le lo r hi : bnd lo r hi -> loc_le lo hi.
Proof. intros (A & B & C). exact (loc_le_trans _ _ _ A (loc_le_trans _ _ _ B C)). Qed.
Lemma bnd_widen lo lo' r hi hi' : loc_le lo' lo -> loc_le hi hi' -> bnd lo r hi -> bnd lo' r hi'.
Proof. intros A B (C & D & E). split; [eapply loc_le_trans; eauto|]. split; [exact D|eapply loc_le_trans; eauto]. Qed.

Lemma bnd_surrounding lo a b hi : bnd lo a hi -> bnd lo b hi -> bnd lo (surrounding a b) hi.
Proof.
  intros (A1 & A2 & A3) (B1 & B2 & B3). split; [apply loc_min_glb; assumption|]. split; [apply surrounding_well_ordered; exact A2|].
  apply loc_max_lub; assumption.
Qed.
Lemma bnd_before lo a mid1 mid2 b hi : bnd lo a mid1 -> loc_le mid1 mid2 -> bnd mid2 b hi -> before a b.
Proof. intros (_ & _ & A) M (B & _ & _). unfold before. eapply loc_le_trans; [exact A|]. eapply loc_le_trans; eauto. Qed.
Lemma within_brackets l rl a lo hi : well_ordered l -> well_ordered rl -> loc_le (r_end l) lo -> loc_le hi (r_end rl) ->
  bnd lo a hi -> within a (surrounding l rl).
Proof.
  intros Wl Wr A B (C & D & E). split.
  - cbn. eapply loc_le_trans; [apply loc_min_le_l|]. eapply loc_le_trans; [exact Wl|]. eapply loc_le_trans; eauto.
  - cbn. eapply loc_le_trans; [exact E|]. eapply loc_le_trans; [exact B|apply loc_max_ge_r].
Qed.

Definition tokq (lo : loc) (o : option tokloc) (hi : loc) : Prop :=
  match o with Some x => bnd lo (t_loc x) hi | None => True end.

Lemma tz_collect_some t x s eof : tz_collect t = (LOk (Some x) s, eof) ->
  loc_le (sc_loc (tz_scan t)) (r_start (t_loc x)) /\ well_ordered (t_loc x) /\ r_end (t_loc x) = sc_loc s.
Proof.
  unfold tz_collect. destruct (tz_eof t); [discriminate|].
  destruct (collect_token (tz_scan t)) as [[y|] s1| |] eqn:C; try discriminate.
  intros H. injection H as <- <- _. destruct (collect_token_span _ _ _ C) as (_ & A & B & D). auto.
Qed.
Lemma tz_collect_none t s eof : tz_collect t = (LOk None s, eof) -> loc_le (sc_loc (tz_scan t)) (sc_loc s).
Proof.
  unfold tz_collect. destruct (tz_eof t); [intros H; injection H as <- _; apply loc_le_refl|].
  destruct (collect_token (tz_scan t)) as [[y|] s1| |] eqn:C; try discriminate.
  intros H. injection H as <- _. apply fwd_le. eapply collect_token_fwd; eauto.
Qed.


Lemma peek_cur t o t' : peek t = POk o t' -> tz_cur t' = o.
Proof.
  unfold peek, tz_peek. destruct (tz_cur t) as [x|] eqn:Cu; [intros H; injection H as <- <-; exact Cu|].
  destruct (tz_collect t) as [[o1 s| |] eof]; try discriminate. intros H. injection H as <- <-. reflexivity.
Qed.
Lemma next_cur t o t' : next t = POk o t' -> tz_cur t' = None.
Proof.
  unfold next, tz_next. destruct (tz_cur t) as [x|]; [intros H; injection H as _ <-; reflexivity|].
  destruct (tz_collect t) as [[o1 s| |] eof]; try discriminate. intros H. injection H as _ <-. reflexivity.
Qed.
Lemma is_tok_some o k : is_tok o k = true -> exists x, o = Some x.
Proof. destruct o as [x|]; [eauto|discriminate]. Qed.

Lemma st_peek t o t' : tzinv t -> peek t = POk o t' -> st t t'.
Proof.
  unfold peek, tz_peek. intros Hi. destruct (tz_cur t) as [x|] eqn:Cu; [intros H; injection H as _ <-; apply st_refl; exact Hi|].
  destruct (tz_collect t) as [[o1 s| |] eof] eqn:C; try discriminate. intros H. injection H as <- <-.
  unfold st, tzinv, front, reach. rewrite Cu. cbn [tz_cur tz_scan]. destruct o1 as [x|].
  - destruct (tz_collect_some _ _ _ _ C) as (A & B & D). split; [split; assumption|]. split; [exact A|]. rewrite <- D. eapply loc_le_trans; eauto.
  - pose proof (tz_collect_none _ _ _ C). auto.
Qed.
Lemma st_next t o t' : tzinv t -> next t = POk o t' -> st t t' /\ tokq (front t) o (front t') /\ (forall x, o = Some x -> loc_le (reach t) (r_end (t_loc x))).
Proof.
  unfold next, tz_next. intros Hi. pose proof (front_le_reach _ Hi) as FR. revert Hi FR. unfold st, tzinv, front, reach.
  destruct (tz_cur t) as [y|] eqn:Cu.
  - intros [W E] FR H. injection H as <- <-. cbn [tz_cur tz_scan tokq]. rewrite <- E.
    split; [split; [exact I|split; [exact W|apply loc_le_refl]]|]. split; [split; [apply loc_le_refl|split; [exact W|apply loc_le_refl]]|].
    intros x Ex. injection Ex as <-. apply loc_le_refl.
  - intros _ _. destruct (tz_collect t) as [[o1 s| |] eof] eqn:C; try discriminate. intros H. injection H as <- <-. cbn [tz_cur tz_scan].
    destruct o1 as [x|]; cbn [tokq].
    + destruct (tz_collect_some _ _ _ _ C) as (A & B & D). rewrite <- D. pose proof (loc_le_trans _ _ _ A B) as AB.
      split; [split; [exact I|split; exact AB]|]. split; [split; [exact A|split; [exact B|apply loc_le_refl]]|].
      intros y Ey. injection Ey as <-. exact AB.
    + pose proof (tz_collect_none _ _ _ C) as L. split; [split; [exact I|split; exact L]|]. split; [exact I|]. intros y Ey. discriminate.
Qed.
Definition pk {A} (Q : loc -> A -> loc -> Prop) (m : P A) : Prop :=
  forall t a t', tzinv t -> m t = POk a t' ->
    tzinv t' /\ loc_le (front t) (front t') /\ loc_le (reach t) (reach t') /\ Q (front t) a (reach t').

Lemma pk_ret {A} (Q : loc -> A -> loc -> Prop) a : (forall lo hi, loc_le lo hi -> Q lo a hi) -> pk Q (pret a).
Proof.
  intros H t a0 t' Hi E. injection E as <- <-. split; [exact Hi|]. split; [apply loc_le_refl|]. split; [apply loc_le_refl|].
  apply H. apply front_le_reach. exact Hi.
Qed.
Lemma pk_fail_here {A} (Q : loc -> A -> loc -> Prop) : pk Q fail_here. Proof. intros t a t' _ E. discriminate. Qed.
Lemma pk_fail_at {A} (Q : loc -> A -> loc -> Prop) l : pk Q (fail_at l). Proof. intros t a t' _ E. discriminate. Qed.
Lemma pk_fuel {A} (Q : loc -> A -> loc -> Prop) : pk Q (fun _ => PFuel). Proof. intros t a t' _ E. discriminate. Qed.
Lemma pk_at {A} (Q : loc -> A -> loc -> Prop) (f : tokenizer -> P A) : (forall t0, pk Q (f t0)) -> pk Q (fun t => f t t).
Proof. intros H t a t' Hi E. eapply H; eauto. Qed.

(** sequencing: the second parser starts where the first stopped (its start is at or after the first's start,
    and what the first reached is at or before what the second reaches) *)
Lemma pk_bind {A B} (Q : loc -> A -> loc -> Prop) (R : A -> loc -> B -> loc -> Prop) (S : loc -> B -> loc -> Prop) m f :
  pk Q m -> (forall a, pk (R a) (f a)) ->
  (forall lo mid1 mid2 hi a b, loc_le lo mid2 -> loc_le mid1 hi -> loc_le mid2 hi -> Q lo a mid1 -> R a mid2 b hi -> S lo b hi) ->
  pk S (pbind m f).
Proof.
  intros Hm Hf Hc t b t' Hi E. unfold pbind in E. destruct (m t) as [a t1| |] eqn:M; try discriminate.
  destruct (Hm _ _ _ Hi M) as (I1 & F1 & R1 & Q1). destruct (Hf a _ _ _ I1 E) as (I2 & F2 & R2 & Q2).
  split; [exact I2|]. split; [eapply loc_le_trans; eauto|]. split; [eapply loc_le_trans; eauto|].
  eapply Hc; [exact F1|exact R2| |exact Q1|exact Q2].
  eapply loc_le_trans; [apply front_le_reach; exact I1|exact R2].
Qed.

Lemma pk_peek : pk (fun _ _ _ => True) peek.
Proof. intros t o t' Hi E. destruct (st_peek _ _ _ Hi E) as (I' & F & R). auto. Qed.
Lemma pk_next : pk tokq next.
Proof.
  intros t o t' Hi E. destruct (st_next _ _ _ Hi E) as ((I' & F & R) & Tq & _). split; [exact I'|]. split; [exact F|]. split; [exact R|].
  destruct o as [x|]; [|exact I]. eapply bnd_widen; [apply loc_le_refl|apply front_le_reach; exact I'|exact Tq].
Qed.
Lemma pk_here : pk (fun lo l hi => loc_le lo l /\ loc_le l hi) here.
Proof.
  intros t l t' Hi E. unfold here in E. injection E as <- <-. split; [exact Hi|]. split; [apply loc_le_refl|]. split; [apply loc_le_refl|].
  unfold tz_loc. fold (reach t). split; [apply front_le_reach; exact Hi|apply loc_le_refl].
Qed.

Fixpoint ordered (l : list range) : Prop :=
  match l with a :: ((b :: _) as r) => before a b /\ ordered r | _ => True end.

Section Br.
  Variable rec : expr -> Prop.
  Definition init_range (i : objinit) : range := match i with ObjInit r _ _ => r end.
  Definition br_init (i : objinit) : Prop :=
    match i with ObjInit r k v => before (expr_range k) (expr_range v) /\ within (expr_range k) r /\ within (expr_range v) r /\ rec k /\ rec v end.
  Definition br_primary (p : primary) : Prop :=
    match p with
    | PrParens r e => within (expr_range e) r /\ rec e
    | PrList r es => Forall (fun e => within (expr_range e) r /\ rec e) es /\ ordered (map expr_range es)
    | PrObj r inits => Forall (fun i => within (init_range i) r /\ br_init i) inits /\ ordered (map init_range inits)
    | _ => True
    end.
  Definition br_mprime (m : mprime) : Prop :=
    match m with
    | MPCall r args => Forall (fun e => within (expr_range e) r /\ rec e) args /\ ordered (map expr_range (rev args))
    | MPIndex r e => within (expr_range e) r /\ rec e
    | MPAccess _ _ _ => True
    end.
  Definition br_member (m : member) : Prop :=
    match m with Member _ p ms => br_primary p /\ Forall br_mprime ms /\ ordered (primary_range p :: map mprime_range ms) end.
  Definition br_unary (u : unary) : Prop := match u with UnMember _ m | UnNot _ _ m | UnNeg _ _ m => br_member m end.
  Fixpoint br_mult (e : mult) : Prop :=
    match e with MulUn _ u => br_unary u | MulBin _ l _ b => before (mult_range l) (unary_range b) /\ br_mult l /\ br_unary b end.
  Fixpoint br_addn (e : addn) : Prop :=
    match e with AddUn _ u => br_mult u | AddBin _ l _ b => before (addn_range l) (mult_range b) /\ br_addn l /\ br_mult b end.
  Fixpoint br_rel (e : rel) : Prop :=
    match e with RelUn _ u => br_addn u | RelBin _ l _ b => before (rel_range l) (addn_range b) /\ br_rel l /\ br_addn b end.
  Fixpoint br_cand (e : cand) : Prop :=
    match e with AndUn _ u => br_rel u | AndBin _ l b => before (cand_range l) (rel_range b) /\ br_cand l /\ br_rel b end.
  Fixpoint br_cor (e : cor) : Prop :=
    match e with OrUn _ u => br_cand u | OrBin _ l b => before (cor_range l) (cand_range b) /\ br_cor l /\ br_cand b end.
  Definition br_pattern (p : mpat) : Prop := match p with MPatCmp _ _ _ o => br_cor o | _ => True end.
  Definition br_case (r : range) (c : mcase) : Prop := match c with MCase _ p arm => within (expr_range arm) r /\ br_pattern p /\ rec arm end.
  Definition br_expr_body (e : expr) : Prop :=
    match e with
    | EUnary _ c => br_cor c
    | ETernary _ c t f => before (cor_range c) (cor_range t) /\ before (cor_range t) (expr_range f) /\ br_cor c /\ br_cor t /\ rec f
    | EMatch r c cases => within (expr_range c) r /\ Forall (br_case r) cases /\ rec c
    end.
End Br.

Fixpoint br (fuel : nat) (e : expr) : Prop := match fuel with O => True | S f => br_expr_body (br f) e end.

(** a list of nodes parsed one after the other between two positions *)
Fixpoint seq_bnd {A} (rng : A -> range) (lo : loc) (l : list A) (hi : loc) : Prop :=
  match l with
  | [] => loc_le lo hi
  | x :: r => exists mid1 mid2, bnd lo (rng x) mid1 /\ loc_le mid1 mid2 /\ seq_bnd rng mid2 r hi
  end.

Lemma seq_bnd_le {A} (rng : A -> range) : forall l lo hi, seq_bnd rng lo l hi -> loc_le lo hi.
Proof.
  induction l as [|x r IH]; intros lo hi H; [exact H|]. destruct H as (m1 & m2 & B & M & Hr).
  exact (loc_le_trans _ _ _ (bnd_le _ _ _ B) (loc_le_trans _ _ _ M (IH _ _ Hr))).
Qed.
Lemma seq_bnd_widen {A} (rng : A -> range) l : forall lo lo' hi hi', loc_le lo' lo -> loc_le hi hi' -> seq_bnd rng lo l hi -> seq_bnd rng lo' l hi'.
Proof.
  induction l as [|x r IH]; intros lo lo' hi hi' A1 A2 H; cbn [seq_bnd] in *.
  - eapply loc_le_trans; [exact A1|]. eapply loc_le_trans; eauto.
  - destruct H as (m1 & m2 & B & M & Hr). exists m1, m2. split; [eapply bnd_widen; [exact A1|apply loc_le_refl|exact B]|]. split; [exact M|].
    eapply IH; [apply loc_le_refl|exact A2|exact Hr].
Qed.
Lemma seq_bnd_snoc {A} (rng : A -> range) : forall l lo mid1 mid2 x hi,
  seq_bnd rng lo l mid1 -> loc_le mid1 mid2 -> bnd mid2 (rng x) hi -> seq_bnd rng lo (l ++ [x]) hi.
Proof.
  induction l as [|y r IH]; intros lo mid1 mid2 x hi H M B; cbn [app seq_bnd] in *.
  - exists hi, hi. split; [eapply bnd_widen; [eapply loc_le_trans; eauto|apply loc_le_refl|exact B]|]. split; apply loc_le_refl.
  - destruct H as (m1 & m2 & By & My & Hr). exists m1, m2. split; [exact By|]. split; [exact My|]. eapply IH; eauto.
Qed.
Lemma seq_bnd_all {A} (rng : A -> range) : forall l lo hi, seq_bnd rng lo l hi -> Forall (fun x => bnd lo (rng x) hi) l /\ ordered (map rng l).
Proof.
  induction l as [|x r IH]; intros lo hi H; [split; [constructor|exact I]|].
  destruct H as (m1 & m2 & B & M & Hr). destruct (IH _ _ Hr) as [F O]. pose proof (seq_bnd_le _ _ _ _ Hr) as L2. split.
  - constructor; [eapply bnd_widen; [apply loc_le_refl| |exact B]; eapply loc_le_trans; eauto|].
    eapply Forall_impl; [|exact F]. intros y By. eapply bnd_widen; [|apply loc_le_refl|exact By].
    exact (loc_le_trans _ _ _ (bnd_le _ _ _ B) M).
  - cbn [map]. destruct r as [|y r']; [exact I|]. cbn [map ordered] in *. split; [|exact O].
    destruct Hr as (n1 & n2 & By & _). eapply bnd_before; eauto.
Qed.


(** the node relation: between the front on entry and the reach on exit *)
Definition nd (t : tokenizer) (r : range) (t' : tokenizer) : Prop := bnd (front t) r (reach t').

Lemma nd_widen t0 t r t' t1 : st t0 t -> st t' t1 -> nd t r t' -> nd t0 r t1.
Proof. intros (_ & F & _) (_ & _ & R) H. eapply bnd_widen; eauto. Qed.

(** the three list loops carry what they have parsed as a sequence that ends where the unread input begins *)
Lemma seq_done {A} (rng : A -> range) lo0 l t t' : tzinv t -> st t t' -> seq_bnd rng lo0 l (front t) -> seq_bnd rng lo0 l (reach t').
Proof.
  intros Hi (_ & _ & R) Hs. eapply seq_bnd_widen; [apply loc_le_refl| |exact Hs].
  eapply loc_le_trans; [apply front_le_reach; exact Hi|exact R].
Qed.
Lemma seq_push {A} (rng : A -> range) lo0 acc t t1 x hi :
  seq_bnd rng lo0 (rev acc) (front t) -> st t t1 -> bnd (front t1) (rng x) hi -> seq_bnd rng lo0 (rev (x :: acc)) hi.
Proof. intros Hs (_ & F & _) B. exact (seq_bnd_snoc rng _ _ _ _ _ _ Hs F B). Qed.

(** [run t Q m]: started in the state [t], whatever [m] returns satisfies [Q] in a later state *)
Definition run {A} (t : tokenizer) (Q : A -> tokenizer -> Prop) (m : P A) : Prop :=
  tzinv t -> forall a t', m t = POk a t' -> st t t' /\ Q a t'.

Lemma run_inv {A} t (Q : A -> tokenizer -> Prop) m : (tzinv t -> run t Q m) -> run t Q m.
Proof. intros H Hi. exact (H Hi Hi). Qed.
Lemma run_ret {A} t (Q : A -> tokenizer -> Prop) a : Q a t -> run t Q (pret a).
Proof. intros H Hi a0 t' E. injection E as <- <-. split; [exact (st_refl _ Hi)|exact H]. Qed.
Lemma run_fail_here {A} t (Q : A -> tokenizer -> Prop) : run t Q fail_here. Proof. intros _ a t' E. discriminate. Qed.
Lemma run_fail_at {A} t (Q : A -> tokenizer -> Prop) l : run t Q (fail_at l). Proof. intros _ a t' E. discriminate. Qed.
Lemma run_fuel {A} t (Q : A -> tokenizer -> Prop) : run t Q (fun _ => PFuel). Proof. intros _ a t' E. discriminate. Qed.
Lemma run_at {A} t (Q : A -> tokenizer -> Prop) (f : tokenizer -> P A) : run t Q (f t) -> run t Q (fun t' => f t' t').
Proof. exact (fun H => H). Qed.
Lemma run_ext {A} t (Q : A -> tokenizer -> Prop) (m m' : P A) : m t = m' t -> run t Q m' -> run t Q m.
Proof. intros E H Hi a t' M. rewrite E in M. exact (H Hi _ _ M). Qed.
(** sequencing: the rest runs from the state the first part reached, knowing what the first part established there;
    that the whole moves from [t] to the end is composed here, once *)
Lemma run_bind {A B} t (Q : A -> tokenizer -> Prop) (S : B -> tokenizer -> Prop) m f :
  run t Q m -> (forall a t1, st t t1 -> Q a t1 -> run t1 S (f a)) -> run t S (pbind m f).
Proof.
  intros Hm Hf Hi b t2 E. apply pbind_ok in E. destruct E as (a & t1 & M & E). destruct (Hm Hi _ _ M) as [S1 Hq].
  destruct (Hf a t1 S1 Hq (proj1 S1) _ _ E) as [S2 Hs]. split; [exact (st_trans _ _ _ S1 S2)|exact Hs].
Qed.

Lemma run_peek t : run t (fun o t' => tz_cur t' = o) peek.
Proof. intros Hi o t' E. split; [exact (st_peek _ _ _ Hi E)|exact (peek_cur _ _ _ E)]. Qed.
Lemma run_here t : run t (fun _ _ => True) here.
Proof. intros Hi l t' E. injection E as _ <-. split; [exact (st_refl _ Hi)|exact I]. Qed.
(** [next] returns the token a preceding [peek] showed; afterwards nothing is buffered; the token lies between the
    old front and the new one, after everything read before it *)
Definition nextq (t : tokenizer) (o : option tokloc) (t' : tokenizer) : Prop :=
  (forall x, tz_cur t = Some x -> o = Some x) /\ front t' = reach t' /\ tokq (front t) o (front t') /\
  forall x, o = Some x -> loc_le (reach t) (r_end (t_loc x)) /\ loc_le (reach t) (front t').
Lemma run_next t : run t (nextq t) next.
Proof.
  intros Hi o t' E. destruct (st_next _ _ _ Hi E) as (S & Tq & Rq). split; [exact S|]. split; [|split; [|split; [exact Tq|]]].
  - intros x Cu. unfold next, tz_next in E. rewrite Cu in E. injection E as <- _. reflexivity.
  - unfold front. rewrite (next_cur _ _ _ E). reflexivity.
  - intros x ->. split; [exact (Rq _ eq_refl)|exact (loc_le_trans _ _ _ (Rq _ eq_refl) (proj2 (proj2 Tq)))].
Qed.

Section Levels.
  Variable rec_expr : P expr.
  Variable rec_src : chars -> pres unit.
  Variable Rr : expr -> Prop.
  Hypothesis Hrec : forall t, run t (fun e t' => nd t (expr_range e) t' /\ Rr e) rec_expr.

  Lemma p_expr_list_b lo0 : forall n ending acc t, seq_bnd expr_range lo0 (rev acc) (front t) -> Forall Rr acc ->
    run t (fun es t' => seq_bnd expr_range lo0 es (reach t') /\ Forall Rr es) (p_expr_list rec_expr n ending acc).
  Proof.
    induction n as [|n IH]; intros ending acc t Hs Ha; cbn [p_expr_list]; [apply run_fuel|]. apply run_inv. intros Hi.
    eapply run_bind; [apply run_peek|]. intros a t1 S1 _.
    destruct (is_tok a ending).
    - apply run_ret. split; [exact (seq_done _ _ _ _ _ Hi S1 Hs)|apply Forall_rev; exact Ha].
    - eapply run_bind; [apply Hrec|]. intros e t2 S2 (N2 & Re). pose proof (seq_push _ _ _ _ _ _ _ Hs S1 N2) as Hs2.
      eapply run_bind; [apply run_peek|]. intros a1 t3 S3 Cu.
      destruct (is_tok a1 TComma) eqn:Ic.
      + destruct (is_tok_some _ _ Ic) as (x & ->). eapply run_bind; [apply run_next|]. intros o t4 S4 (Same & _ & _ & Rq).
        apply (IH _ (e :: acc)); [|exact (Forall_cons _ Re Ha)]. eapply seq_bnd_widen; [apply loc_le_refl| |exact Hs2].
        exact (loc_le_trans _ _ _ (proj2 (proj2 S3)) (proj2 (Rq _ (Same _ Cu)))).
      + apply run_ret. split; [|apply (Forall_rev (Forall_cons _ Re Ha))].
        eapply seq_bnd_widen; [apply loc_le_refl|exact (proj2 (proj2 S3))|exact Hs2].
  Qed.

  Lemma within_of_bnd lo a hi r : bnd lo a hi -> loc_le (r_start r) lo -> loc_le hi (r_end r) -> within a r.
  Proof. intros (A & B & C) L H. split; eapply loc_le_trans; eauto. Qed.

  Lemma p_obj_inits_b lo0 : forall n acc t, seq_bnd init_range lo0 (rev acc) (front t) -> Forall (br_init Rr) acc ->
    run t (fun is t' => seq_bnd init_range lo0 is (reach t') /\ Forall (br_init Rr) is) (p_obj_inits rec_expr n acc).
  Proof.
    induction n as [|n IH]; intros acc t Hs Ha; cbn [p_obj_inits]; [apply run_fuel|]. apply run_inv. intros Hi.
    eapply run_bind; [apply run_peek|]. intros o1 t1 S1 _.
    destruct (is_tok o1 TRBrace).
    - apply run_ret. split; [exact (seq_done _ _ _ _ _ Hi S1 Hs)|apply Forall_rev; exact Ha].
    - eapply run_bind; [apply Hrec|]. intros k t2 S2 (N2 & Rk). eapply run_bind; [apply run_next|]. intros oc t3 S3 (_ & _ & _ & Rq3).
      destruct (negb (is_tok oc TColon)) eqn:Ic; [apply run_fail_here|]. apply negb_false_iff in Ic. destruct (is_tok_some _ _ Ic) as (cx & ->).
      eapply run_bind; [apply Hrec|]. intros v t4 S4 (N4 & Rv). cbv zeta.
      set (init := ObjInit (surrounding (expr_range k) (expr_range v)) k v).
      assert (Ni : bnd (front t1) (init_range init) (reach t4)).
      { apply bnd_surrounding.
        - exact (nd_widen _ _ _ _ _ (st_refl _ (proj1 S1)) (st_trans _ _ _ S3 S4) N2).
        - exact (nd_widen _ _ _ _ _ (st_trans _ _ _ S2 S3) (st_refl _ (proj1 S4)) N4). }
      assert (Bi : br_init Rr init).
      { split; [exact (bnd_before _ _ _ _ _ _ N2 (proj2 (Rq3 _ eq_refl)) N4)|].
        split; [exact (proj1 (surrounding_contains _ _))|]. split; [exact (proj2 (surrounding_contains _ _))|]. split; assumption. }
      pose proof (seq_push _ _ _ _ _ _ _ Hs S1 Ni) as Hs2.
      eapply run_bind; [apply run_peek|]. intros o5 t5 S5 Cu.
      destruct (is_tok o5 TComma) eqn:Icm.
      + destruct (is_tok_some _ _ Icm) as (x & ->). eapply run_bind; [apply run_next|]. intros o6 t6 S6 (Same & _ & _ & Rq6).
        apply (IH (init :: acc)); [|exact (Forall_cons _ Bi Ha)]. eapply seq_bnd_widen; [apply loc_le_refl| |exact Hs2].
        exact (loc_le_trans _ _ _ (proj2 (proj2 S5)) (proj2 (Rq6 _ (Same _ Cu)))).
      + apply run_ret. split; [|apply (Forall_rev (Forall_cons _ Bi Ha))].
        eapply seq_bnd_widen; [apply loc_le_refl|exact (proj2 (proj2 S5))|exact Hs2].
  Qed.

  Lemma check_segments_same at_ : forall segs t u t', check_segments rec_src at_ segs t = POk u t' -> t' = t.
  Proof.
    induction segs as [|sg r IH]; intros t u t' H; cbn [check_segments] in H; [injection H as _ <-; reflexivity|].
    destruct sg as [s|s]; [eapply IH; eauto|]. destruct (rec_src s); try discriminate; eapply IH; eauto.
  Qed.

  Lemma tok_nd t k l t1 t' : tokq (front t) (Some (mkTok k l)) (front t1) -> tzinv t1 -> st t1 t' -> nd t l t'.
  Proof.
    intros Tq I1 S. cbn [tokq t_loc] in Tq. eapply bnd_widen; [apply loc_le_refl| |exact Tq]. eapply loc_le_trans; [apply front_le_reach; exact I1|exact (proj2 (proj2 S))].
  Qed.

  Lemma brackets_b t k l t1 t2 ck rl t3 :
    st t t1 -> nextq t (Some (mkTok k l)) t1 -> st t1 t2 -> st t2 t3 -> nextq t2 (Some (mkTok ck rl)) t3 ->
    nd t (surrounding l rl) t3 /\ forall a, bnd (front t1) a (reach t2) -> within a (surrounding l rl).
  Proof.
    intros S1 (_ & _ & Tq1 & _) S2 S3 (_ & _ & Tq3 & Rq3). split.
    - apply bnd_surrounding.
      + exact (tok_nd _ _ _ _ _ Tq1 (proj1 S1) (st_trans _ _ _ S2 S3)).
      + eapply bnd_widen; [|apply front_le_reach; exact (proj1 S3)|exact Tq3]. exact (loc_le_trans _ _ _ (proj1 (proj2 S1)) (proj1 (proj2 S2))).
    - intros a Ba. exact (within_brackets l rl a _ _ (proj1 (proj2 Tq1)) (proj1 (proj2 Tq3)) (proj2 (proj2 Tq1)) (proj1 (Rq3 _ eq_refl)) Ba).
  Qed.

  Lemma p_primary_b t : run t (fun p t' => nd t (primary_range p) t' /\ br_primary Rr p /\ front t' = reach t') (p_primary rec_expr rec_src).
  Proof.
    unfold p_primary. eapply run_bind; [apply run_next|]. intros o t1 S1 N1. destruct o as [[k l]|]; [|apply run_fail_here].
    assert (Leaf : forall p0, primary_range p0 = l -> br_primary Rr p0 ->
                   run t1 (fun p t' => nd t (primary_range p) t' /\ br_primary Rr p /\ front t' = reach t') (pret p0)).
    { intros p0 Er Bp. apply run_ret. rewrite Er. split; [|split; [exact Bp|exact (proj1 (proj2 N1))]].
      exact (tok_nd t k l t1 t1 (proj1 (proj2 (proj2 N1))) (proj1 S1) (st_refl _ (proj1 S1))). }
    assert (Seq : forall A (rng : A -> range) (xs : list A) t2 t3 t4 ck rl,
              st t1 t2 -> seq_bnd rng (front t1) xs (reach t2) -> st t2 t3 -> st t3 t4 -> nextq t3 (Some (mkTok ck rl)) t4 ->
              nd t (surrounding l rl) t4 /\ Forall (fun x => within (rng x) (surrounding l rl)) xs /\ ordered (map rng xs)).
    { intros A rng xs t2 t3 t4 ck rl S2 Q2 S3 S4 N4.
      destruct (brackets_b _ _ _ _ _ _ _ _ S1 N1 (st_trans _ _ _ S2 S3) S4 N4) as (N & W). destruct (seq_bnd_all _ _ _ _ Q2) as [Fb Ob].
      split; [exact N|]. split; [|exact Ob].
      eapply Forall_impl; [|exact Fb]. intros x Bx. apply W. eapply bnd_widen; [apply loc_le_refl|exact (proj2 (proj2 S3))|exact Bx]. }
    destruct k; try apply run_fail_here; try (eapply Leaf; [reflexivity|exact I]).
    - apply run_at with (f := fun _ => _). eapply run_bind; [apply (p_expr_list_b (front t1)); [apply loc_le_refl|constructor]|]. intros es t2 S2 (Q2 & F2).
      eapply run_bind; [apply run_peek|]. intros c t3 S3 Cu. destruct c as [[[] rl]|]; try apply run_fail_here.
      eapply run_bind; [apply run_next|]. intros o4 t4 S4 N4. apply run_ret. rewrite (proj1 N4 _ Cu) in N4.
      destruct (Seq _ _ _ _ _ _ _ _ S2 Q2 S3 S4 N4) as (N & W & O). split; [exact N|]. split; [|exact (proj1 (proj2 N4))]. split; [|exact O].
      rewrite Forall_forall in *. intros e He. split; [apply W|apply F2]; exact He.
    - apply run_at with (f := fun _ => _). eapply run_bind; [apply (p_obj_inits_b (front t1)); [apply loc_le_refl|constructor]|]. intros inits t2 S2 (Q2 & F2).
      eapply run_bind; [apply run_peek|]. intros c t3 S3 Cu. destruct c as [[[] rl]|]; try apply run_fail_here.
      eapply run_bind; [apply run_next|]. intros o4 t4 S4 N4. apply run_ret. rewrite (proj1 N4 _ Cu) in N4.
      destruct (Seq _ _ _ _ _ _ _ _ S2 Q2 S3 S4 N4) as (N & W & O). split; [exact N|]. split; [|exact (proj1 (proj2 N4))]. split; [|exact O].
      rewrite Forall_forall in *. intros e He. split; [apply W|apply F2]; exact He.
    - eapply run_bind; [apply Hrec|]. intros e t2 S2 (N2 & Re). eapply run_bind; [apply run_next|]. intros c t3 S3 N3.
      destruct c as [[ck rl]|]; [|apply run_fail_at]. destruct ck; try apply run_fail_at. apply run_ret.
      destruct (brackets_b _ _ _ _ _ _ _ _ S1 N1 S2 S3 N3) as (N & W). split; [exact N|]. split; [split; [exact (W _ N2)|exact Re]|exact (proj1 (proj2 N3))].
    - destruct (v <=? i64_max); [|apply run_fail_at]. eapply Leaf; [reflexivity|exact I].
    - eapply run_bind with (Q := fun _ t' => t' = t1).
      + intros Hi u t' E. apply check_segments_same in E. subst t'. split; [exact (st_refl _ Hi)|reflexivity].
      + intros u t2 _ ->. eapply Leaf; [reflexivity|exact I].
  Qed.

  Lemma p_member_primes_b lo0 : forall n acc t, seq_bnd mprime_range lo0 (rev acc) (front t) -> Forall (br_mprime Rr) acc ->
    run t (fun ms t' => seq_bnd mprime_range lo0 ms (reach t') /\ Forall (br_mprime Rr) ms) (p_member_primes rec_expr n acc).
  Proof.
    induction n as [|n IH]; intros acc t Hs Ha; cbn [p_member_primes]; [apply run_fuel|]. apply run_inv. intros Hi.
    eapply run_bind; [apply run_peek|]. intros o t1 S1 Cu.
    assert (Done : run t1 (fun ms t' => seq_bnd mprime_range lo0 ms (reach t') /\ Forall (br_mprime Rr) ms) (pret (rev acc))).
    { apply run_ret. split; [exact (seq_done _ _ _ _ _ Hi S1 Hs)|apply Forall_rev; exact Ha]. }
    assert (Step : forall x tk, front tk = reach tk -> bnd (front t1) (mprime_range x) (reach tk) -> br_mprime Rr x ->
              run tk (fun ms t' => seq_bnd mprime_range lo0 ms (reach t') /\ Forall (br_mprime Rr) ms) (p_member_primes rec_expr n (x :: acc))).
    { intros x tk Fk Nm Bm. apply IH; [|exact (Forall_cons _ Bm Ha)]. rewrite Fk. exact (seq_push _ _ _ _ _ _ _ Hs S1 Nm). }
    destruct o as [[k l]|]; [|exact Done]. destruct k; try exact Done; clear Done;
      (eapply run_bind; [apply run_next|]; intros o2 t2 S2 N2; rewrite (proj1 N2 _ Cu) in N2).
    - eapply run_bind; [apply run_next|]. intros i t3 S3 N3. destruct i as [[ik il]|]; [|apply run_fail_here]. destruct ik; try apply run_fail_here.
      destruct (brackets_b _ _ _ _ _ _ _ _ S2 N2 (st_refl _ (proj1 S2)) S3 N3) as (N & _).
      exact (Step (MPAccess (surrounding l il) il s) _ (proj1 (proj2 N3)) N Logic.I).
    - eapply run_bind; [apply Hrec|]. intros e t3 S3 (N3 & Re). eapply run_bind; [apply run_next|]. intros c t4 S4 N4.
      destruct c as [[ck rl]|]; [|apply run_fail_here]. destruct ck; try apply run_fail_here.
      destruct (brackets_b _ _ _ _ _ _ _ _ S2 N2 S3 S4 N4) as (N & W).
      exact (Step (MPIndex (surrounding l rl) e) _ (proj1 (proj2 N4)) N (conj (W _ N3) Re)).
    - apply run_at with (f := fun _ => _). eapply run_bind; [apply (p_expr_list_b (front t2)); [apply loc_le_refl|constructor]|]. intros args t3 S3 (Q3 & F3).
      eapply run_bind; [apply run_next|]. intros c t4 S4 N4. destruct c as [[ck rl]|]; [|apply run_fail_here]. destruct ck; try apply run_fail_here.
      destruct (brackets_b _ _ _ _ _ _ _ _ S2 N2 S3 S4 N4) as (N & W). destruct (seq_bnd_all _ _ _ _ Q3) as [Fb Ob].
      refine (Step (MPCall (surrounding l rl) (rev args)) _ (proj1 (proj2 N4)) N _).
      cbn [br_mprime]. rewrite rev_involutive. split; [|exact Ob]. apply Forall_rev. rewrite Forall_forall in *.
      intros e He. split; [apply W, Fb, He|apply F3, He].
  Qed.

  Lemma ordered_cons {A} (rng : A -> range) lo a mid l hi : bnd lo a mid -> seq_bnd rng mid l hi -> ordered (a :: map rng l).
  Proof.
    intros Ba Hs. destruct (seq_bnd_all _ _ _ _ Hs) as [_ O]. destruct l as [|x r]; [exact I|]. cbn [map ordered] in *. split; [|exact O].
    destruct Hs as (m1 & m2 & Bx & _). eapply bnd_before; [exact Ba|apply loc_le_refl|exact Bx].
  Qed.
  Lemma fold_bnd lo hi : forall ms r0, bnd lo r0 hi -> Forall (fun m => bnd lo (mprime_range m) hi) ms ->
    bnd lo (fold_left (fun r m => surrounding r (mprime_range m)) ms r0) hi.
  Proof.
    induction ms as [|m ms IH]; intros r0 B F; cbn [fold_left]; [exact B|]. inversion F; subst. apply IH; [apply bnd_surrounding; assumption|assumption].
  Qed.

  Lemma p_member_b t : run t (fun m t' => nd t (member_range m) t' /\ br_member Rr m) (p_member rec_expr rec_src).
  Proof.
    unfold p_member. eapply run_bind; [apply p_primary_b|]. intros p t1 S1 (N1 & B1 & Fr1). apply run_at with (f := fun _ => _).
    eapply run_bind; [apply (p_member_primes_b (front t1)); [apply loc_le_refl|constructor]|]. intros ms t2 S2 (Q2 & F2).
    apply run_ret. cbn [member_range br_member]. destruct (seq_bnd_all _ _ _ _ Q2) as [Fb Ob]. split.
    - apply fold_bnd.
      + eapply bnd_widen; [apply loc_le_refl|exact (proj2 (proj2 S2))|exact N1].
      + eapply Forall_impl; [|exact Fb]. intros x Bx. eapply bnd_widen; [exact (proj1 (proj2 S1))|apply loc_le_refl|exact Bx].
    - split; [exact B1|]. split; [exact F2|]. eapply ordered_cons; [|exact Q2]. unfold nd in N1. rewrite Fr1. exact N1.
  Qed.

  Lemma p_oplist_b : forall n k cnt t, run t (fun ops t' => nd t (oplist_range ops) t') (p_oplist n k cnt).
  Proof.
    induction n as [|n IH]; intros k cnt t; cbn [p_oplist]; [apply run_fuel|]. destruct (256 <=? cnt); [apply run_fail_here|]. apply run_inv. intros Hi.
    eapply run_bind; [apply run_peek|]. intros o t1 S1 Cu.
    assert (Empty : run t1 (fun ops t' => nd t (oplist_range ops) t') (let! l := here in pret (OLEmpty (mkRange l l)))).
    { intros Hi1 ops t' E. unfold pbind, here, pret in E. injection E as <- <-. split; [exact (st_refl _ Hi1)|].
      split; [|split; apply loc_le_refl]. exact (loc_le_trans _ _ _ (front_le_reach _ Hi) (proj2 (proj2 S1))). }
    destruct o as [x|]; [|exact Empty]. destruct (token_eqb (t_tok x) k); [|exact Empty]. clear Empty.
    eapply run_bind; [apply run_next|]. intros o2 t2 S2 N2. rewrite (proj1 N2 _ Cu) in N2.
    eapply run_bind; [apply IH|]. intros tail t3 S3 N3. apply run_ret. cbn [oplist_range]. apply bnd_surrounding.
    - exact (nd_widen _ _ _ _ _ (st_trans _ _ _ S1 S2) (st_refl _ (proj1 S3)) N3).
    - destruct x as [xk xl]. eapply bnd_widen; [exact (proj1 (proj2 S1))|apply loc_le_refl|].
      exact (tok_nd t1 xk xl t2 t3 (proj1 (proj2 (proj2 N2))) (proj1 S2) S3).
  Qed.

  Lemma p_unary_b t : run t (fun u t' => nd t (unary_range u) t' /\ br_unary Rr u) (p_unary rec_expr rec_src).
  Proof.
    unfold p_unary. eapply run_bind; [apply run_peek|]. intros o t1 S1 _.
    assert (Plain : run t1 (fun u t' => nd t (unary_range u) t' /\ br_unary Rr u)
                      (let! m := p_member rec_expr rec_src in pret (UnMember (member_range m) m))).
    { eapply run_bind; [apply p_member_b|]. intros m t2 S2 (N2 & B2). apply run_ret.
      split; [exact (nd_widen _ _ _ _ _ S1 (st_refl _ (proj1 S2)) N2)|exact B2]. }
    destruct (tok_of o) as [k|]; [|exact Plain].
    destruct k; try exact Plain; clear Plain;
      (apply run_at with (f := fun _ => _); eapply run_bind; [apply p_oplist_b|]; intros ops t2 S2 N2;
       eapply run_bind; [apply p_member_b|]; intros m t3 S3 (N3 & B3); apply run_ret; (split; [|exact B3]); apply bnd_surrounding).
    - exact (nd_widen _ _ _ _ _ (st_trans _ _ _ S1 S2) (st_refl _ (proj1 S3)) N3).
    - exact (nd_widen _ _ _ _ _ S1 S3 N2).
    - exact (nd_widen _ _ _ _ _ S1 S3 N2).
    - exact (nd_widen _ _ _ _ _ (st_trans _ _ _ S1 S2) (st_refl _ (proj1 S3)) N3).
  Qed.

  Lemma lloop_b {A B O} (rngA : A -> range) (rngB : B -> range) (brA : A -> Prop) (brB : B -> Prop)
        (opof : token -> option O) (rhs : P B) (mk : A -> O -> B -> A) lo0 :
    (forall t, run t (fun b t' => nd t (rngB b) t' /\ brB b) rhs) ->
    (forall a o b, rngA (mk a o b) = surrounding (rngA a) (rngB b)) ->
    (forall a o b, brA a -> brB b -> before (rngA a) (rngB b) -> brA (mk a o b)) ->
    forall n acc t, bnd lo0 (rngA acc) (reach t) -> brA acc ->
      run t (fun x t' => bnd lo0 (rngA x) (reach t') /\ brA x) (lloop n opof rhs mk acc).
  Proof.
    intros Hrhs Hrng Hbr. induction n as [|n IH]; intros acc t Ba Bra; cbn [lloop]; [apply run_fuel|].
    eapply run_bind; [apply run_peek|]. intros o t1 S1 Cu.
    assert (Done : run t1 (fun x t' => bnd lo0 (rngA x) (reach t') /\ brA x) (pret acc)).
    { apply run_ret. split; [|exact Bra]. eapply bnd_widen; [apply loc_le_refl|exact (proj2 (proj2 S1))|exact Ba]. }
    destruct o as [tk|]; [|exact Done]. destruct (opof (t_tok tk)) as [op|]; [|exact Done]. clear Done.
    eapply run_bind; [apply run_next|]. intros o2 t2 S2 (Same & _ & _ & Rq).
    eapply run_bind; [apply Hrhs|]. intros b t3 S3 (N3 & Bb).
    pose proof (loc_le_trans _ _ _ (proj2 (proj2 S1)) (proj2 (Rq _ (Same _ Cu)))) as L02.
    apply IH; [|exact (Hbr _ op _ Bra Bb (bnd_before _ _ _ _ _ _ Ba L02 N3))].
    rewrite Hrng. apply bnd_surrounding.
    - eapply bnd_widen; [apply loc_le_refl|exact (proj2 (proj2 (st_trans _ _ _ S1 (st_trans _ _ _ S2 S3))))|exact Ba].
    - eapply bnd_widen; [exact (loc_le_trans _ _ _ (bnd_le _ _ _ Ba) L02)|apply loc_le_refl|exact N3].
  Qed.

  Lemma level_b {A B O} (rngA : A -> range) (rngB : B -> range) (brA : A -> Prop) (brB : B -> Prop)
        (opof : token -> option O) (rhs : P B) (mk : A -> O -> B -> A) (un : B -> A) :
    (forall t, run t (fun b t' => nd t (rngB b) t' /\ brB b) rhs) ->
    (forall b, rngA (un b) = rngB b) -> (forall b, brB b -> brA (un b)) ->
    (forall a o b, rngA (mk a o b) = surrounding (rngA a) (rngB b)) ->
    (forall a o b, brA a -> brB b -> before (rngA a) (rngB b) -> brA (mk a o b)) ->
    forall t, run t (fun x t' => nd t (rngA x) t' /\ brA x) (let! u := rhs in fun t => lloop (loop_fuel t) opof rhs mk (un u) t).
  Proof.
    intros Hrhs Hun Hbun Hrng Hbr t. eapply run_bind; [apply Hrhs|]. intros u t1 S1 (N1 & B1). apply run_at with (f := fun _ => _).
    rewrite <- Hun in N1. exact (lloop_b rngA rngB brA brB opof rhs mk (front t) Hrhs Hrng Hbr _ _ _ N1 (Hbun _ B1)).
  Qed.

  Lemma p_mult_b t : run t (fun x t' => nd t (mult_range x) t' /\ br_mult Rr x) (p_mult rec_expr rec_src).
  Proof.
    refine (level_b mult_range unary_range (br_mult Rr) (br_unary Rr) _ _ _ (fun u => MulUn (unary_range u) u) p_unary_b _ _ _ _ t);
      [reflexivity|exact (fun _ Hb => Hb)|reflexivity|exact (fun _ _ _ Ha Hb Hf => conj Hf (conj Ha Hb))].
  Qed.

  Lemma p_addn_b t : run t (fun x t' => nd t (addn_range x) t' /\ br_addn Rr x) (p_addn rec_expr rec_src).
  Proof.
    refine (level_b addn_range mult_range (br_addn Rr) (br_mult Rr) _ _ _ (fun u => AddUn (mult_range u) u) p_mult_b _ _ _ _ t);
      [reflexivity|exact (fun _ Hb => Hb)|reflexivity|exact (fun _ _ _ Ha Hb Hf => conj Hf (conj Ha Hb))].
  Qed.

  Lemma p_rel_b t : run t (fun x t' => nd t (rel_range x) t' /\ br_rel Rr x) (p_rel rec_expr rec_src).
  Proof.
    refine (level_b rel_range addn_range (br_rel Rr) (br_addn Rr) _ _ _ (fun u => RelUn (addn_range u) u) p_addn_b _ _ _ _ t);
      [reflexivity|exact (fun _ Hb => Hb)|reflexivity|exact (fun _ _ _ Ha Hb Hf => conj Hf (conj Ha Hb))].
  Qed.

  Lemma p_cand_b t : run t (fun x t' => nd t (cand_range x) t' /\ br_cand Rr x) (p_cand rec_expr rec_src).
  Proof.
    refine (level_b cand_range rel_range (br_cand Rr) (br_rel Rr) _ _ _ (fun u => AndUn (rel_range u) u) p_rel_b _ _ _ _ t);
      [reflexivity|exact (fun _ Hb => Hb)|reflexivity|exact (fun _ _ _ Ha Hb Hf => conj Hf (conj Ha Hb))].
  Qed.

  Lemma p_cor_b t : run t (fun x t' => nd t (cor_range x) t' /\ br_cor Rr x) (p_cor rec_expr rec_src).
  Proof.
    refine (level_b cor_range cand_range (br_cor Rr) (br_cand Rr) _ _ _ (fun u => OrUn (cand_range u) u) p_cand_b _ _ _ _ t);
      [reflexivity|exact (fun _ Hb => Hb)|reflexivity|exact (fun _ _ _ Ha Hb Hf => conj Hf (conj Ha Hb))].
  Qed.

  Lemma p_pattern_b t : run t (fun p _ => br_pattern Rr p) (p_pattern rec_expr rec_src).
  Proof.
    eapply run_ext; [apply p_pattern_eq|]. eapply run_bind; [apply run_here|]. intros start t0 _ _.
    eapply run_bind; [apply run_peek|]. intros o t1 _ _.
    assert (Cmp : run t1 (fun p _ => br_pattern Rr p) (p_cmp_pattern rec_expr rec_src start)).
    { unfold p_cmp_pattern. eapply run_bind; [apply run_peek|]. intros o0 t2 _ _. eapply run_bind with (Q := fun _ _ => True).
      - destruct o0 as [tk|]; [destruct (cmpop_of (t_tok tk))|]; try (apply run_ret; exact I).
        eapply run_bind; [apply run_next|]. intros _ t3 _ _. apply run_ret. exact I.
      - intros op t3 _ _. eapply run_bind; [apply run_here|]. intros ope t4 _ _. eapply run_bind; [apply p_cor_b|]. intros c t5 _ (_ & B5).
        eapply run_bind; [apply run_here|]. intros e t6 _ _. apply run_ret. exact B5. }
    assert (Tok : forall q : loc -> mpat, (forall e, br_pattern Rr (q e)) ->
                  run t1 (fun p _ => br_pattern Rr p) (let! _ := next in let! e := here in pret (q e))).
    { intros q Bq. eapply run_bind; [apply run_next|]. intros _ t2 _ _. eapply run_bind; [apply run_here|]. intros e t3 _ _. apply run_ret. apply Bq. }
    destruct (ident_tok o) as [i|]; [|exact Cmp]. unfold p_ident_pattern.
    destruct (bytes_eqb i _); [apply Tok; intros e; exact I|].
    destruct (is_type_name i); [|exact Cmp]. destruct (mtype_of i); [|exact Cmp]. apply Tok. intros e. exact I.
  Qed.

  Definition case_ok (lo hi : loc) (c : mcase) : Prop :=
    match c with MCase _ p arm => bnd lo (expr_range arm) hi /\ br_pattern Rr p /\ Rr arm end.

  Lemma case_up lo hi hi' c : loc_le hi hi' -> case_ok lo hi c -> case_ok lo hi' c.
  Proof. destruct c as [r p arm]. intros L (A & B). split; [exact (bnd_widen _ _ _ _ _ (loc_le_refl _) L A)|exact B]. Qed.

  Lemma p_cases_b : forall n comma rng acc t lo0, loc_le lo0 (front t) -> Forall (case_ok lo0 (reach t)) acc ->
    run t (fun rc t' => Forall (case_ok lo0 (reach t')) (snd rc) /\
             exists rl, fst rc = surrounding rng rl /\ well_ordered rl /\ r_end rl = reach t' /\ loc_le lo0 (r_start rl))
          (p_cases rec_expr rec_src n comma rng acc).
  Proof.
    induction n as [|n IH]; intros comma rng acc t lo0 Hlo Ha; [apply run_fuel|]. eapply run_ext; [apply p_cases_eq|].
    eapply run_bind; [apply run_peek|]. intros rb t1 S1 Cu.
    assert (Up : forall l tt, st t1 tt -> Forall (case_ok lo0 (reach t1)) l -> Forall (case_ok lo0 (reach tt)) l).
    { intros l tt Sx. apply Forall_impl. intros c. apply case_up. exact (proj2 (proj2 Sx)). }
    assert (Ha1 : Forall (case_ok lo0 (reach t1)) acc).
    { eapply Forall_impl; [|exact Ha]. intros c. apply case_up. exact (proj2 (proj2 S1)). }
    destruct (rbrace_tok rb) as [rl|] eqn:Erb.
    - apply rbrace_tok_some in Erb. subst rb. apply run_ret. cbn [fst snd]. split; [apply Forall_rev; exact Ha1|]. exists rl.
      destruct S1 as (I1 & F1 & _). unfold tzinv in I1. unfold front at 2 in F1. rewrite Cu in I1, F1. destruct I1 as [Wr Er].
      split; [reflexivity|]. split; [exact Wr|]. split; [exact Er|exact (loc_le_trans _ _ _ Hlo F1)].
    - unfold p_case. destruct (negb comma); [apply run_fail_here|]. eapply run_bind; [apply run_next|]. intros ct t2 S2 _.
      destruct (negb (is_tok ct TCase)); [apply run_fail_here|]. eapply run_bind; [apply p_pattern_b|]. intros pat t3 S3 B3.
      eapply run_bind; [apply run_next|]. intros col t4 S4 _. destruct (negb (is_tok col TColon)); [apply run_fail_here|].
      eapply run_bind; [apply Hrec|]. intros e t5 S5 (N5 & Re). cbv zeta. eapply run_bind; [apply run_peek|]. intros cm t6 S6 _.
      pose proof (st_trans _ _ _ S2 (st_trans _ _ _ S3 S4)) as S14. pose proof (st_trans _ _ _ S14 (st_trans _ _ _ S5 S6)) as S16.
      pose proof (loc_le_trans _ _ _ Hlo (proj1 (proj2 S1))) as Hlo1.
      assert (Ha6 : Forall (case_ok lo0 (reach t6)) (MCase (surrounding (mpat_range pat) (expr_range e)) pat e :: acc)).
      { constructor; [|exact (Up _ _ S16 Ha1)]. split; [|split; assumption].
        eapply bnd_widen; [exact (loc_le_trans _ _ _ Hlo1 (proj1 (proj2 S14)))|exact (proj2 (proj2 S6))|exact N5]. }
      destruct (is_tok cm TComma).
      + eapply run_bind; [apply run_next|]. intros o7 t7 S7 _.
        apply IH; [exact (loc_le_trans _ _ _ Hlo1 (proj1 (proj2 (st_trans _ _ _ S16 S7))))|].
        eapply Forall_impl; [|exact Ha6]. intros c. apply case_up. exact (proj2 (proj2 S7)).
      + apply IH; [exact (loc_le_trans _ _ _ Hlo1 (proj1 (proj2 S16)))|exact Ha6].
  Qed.

  Lemma within_sur a X rl : loc_le (r_start X) (r_start a) -> loc_le (r_end a) (r_end rl) -> within a (surrounding X rl).
  Proof.
    intros A B. split; cbn.
    - eapply loc_le_trans; [apply loc_min_le_l|exact A].
    - eapply loc_le_trans; [exact B|apply loc_max_ge_r].
  Qed.

  Lemma p_expr_body_b t : run t (fun e t' => nd t (expr_range e) t' /\ br_expr_body Rr e) (p_expr_body rec_expr rec_src).
  Proof.
    eapply run_ext; [apply p_expr_body_eq|]. eapply run_bind; [apply run_peek|]. intros o t1 S1 Cu.
    destruct (match_tok o) as [ml|] eqn:Eo.
    2: { unfold p_cond. eapply run_bind; [apply p_cor_b|]. intros l t2 S2 (N2 & B2). eapply run_bind; [apply run_peek|]. intros q t3 S3 Cq.
      destruct (is_tok q TQuestion) eqn:Iq.
      - destruct (is_tok_some _ _ Iq) as (qx & ->). eapply run_bind; [apply run_next|]. intros o4 t4 S4 (Same4 & _ & _ & Rq4).
        eapply run_bind; [apply p_cor_b|]. intros tc t5 S5 (N5 & B5). eapply run_bind; [apply run_next|]. intros col t6 S6 (_ & _ & _ & Rq6).
        destruct (negb (is_tok col TColon)) eqn:Ic; [apply run_fail_here|]. apply negb_false_iff in Ic. destruct (is_tok_some _ _ Ic) as (cx & ->).
        eapply run_bind; [apply Hrec|]. intros fc t7 S7 (N7 & Rf). apply run_ret. cbn [expr_range br_expr_body].
        split; [|split; [|split; [|split; [exact B2|split; assumption]]]].
        + apply bnd_surrounding.
          * eapply nd_widen; [exact S1| |exact N2]. eauto 8 using st_trans.
          * eapply nd_widen; [|apply st_refl; exact (proj1 S7)|exact N7]. eauto 8 using st_trans.
        + exact (bnd_before _ _ _ _ _ _ N2 (loc_le_trans _ _ _ (proj2 (proj2 S3)) (proj2 (Rq4 _ (Same4 _ Cq)))) N5).
        + exact (bnd_before _ _ _ _ _ _ N5 (proj2 (Rq6 _ eq_refl)) N7).
      - apply run_ret. cbn [expr_range br_expr_body]. split; [exact (nd_widen _ _ _ _ _ S1 S3 N2)|exact B2]. }
    apply match_tok_some in Eo. subst o. unfold p_match.
    eapply run_bind; [apply run_next|]. intros o2 t2 S2 N2. rewrite (proj1 N2 _ Cu) in N2. destruct N2 as (_ & _ & Tq2 & _).
    eapply run_bind; [apply Hrec|]. intros c t3 S3 (N3 & Rc).
    eapply run_bind; [apply run_next|]. intros lb t4 S4 _. destruct (negb (is_tok lb TLBrace)); [apply run_fail_here|]. apply run_at with (f := fun _ => _).
    eapply run_bind; [apply (p_cases_b _ _ _ [] _ (front t4)); [apply loc_le_refl|constructor]|]. intros rc t5 S5 (F5 & rl & Erc & Wrl & Erl & Lrl).
    eapply run_bind; [apply run_next|]. intros o6 t6 S6 _. apply run_ret. cbn [expr_range br_expr_body]. rewrite Erc.
    assert (S26 : st t2 t6). { eapply st_trans; [exact S3|]. eapply st_trans; [exact S4|]. eapply st_trans; eauto. }
    assert (Lml : loc_le (r_start (surrounding ml (expr_range c))) (front t2)).
    { cbn. eapply loc_le_trans; [apply loc_min_le_l|]. cbn [tokq t_loc] in Tq2. destruct Tq2 as (A & B & C). eapply loc_le_trans; [exact B|exact C]. }
    split; [|split; [|split; [|exact Rc]]].
    - apply bnd_surrounding; [apply bnd_surrounding|].
      + eapply bnd_widen; [exact (proj1 (proj2 S1))|apply loc_le_refl|]. eapply (tok_nd t1 TMatch ml t2 t6); [exact Tq2|exact (proj1 S2)|exact S26].
      + eapply bnd_widen; [|exact (proj2 (proj2 (st_trans _ _ _ S4 (st_trans _ _ _ S5 S6))))|exact N3]. eapply loc_le_trans; [exact (proj1 (proj2 S1))|exact (proj1 (proj2 S2))].
      + split; [|split; [exact Wrl|rewrite Erl; exact (proj2 (proj2 S6))]].
        eapply loc_le_trans; [|exact Lrl]. eapply loc_le_trans; [exact (proj1 (proj2 S1))|]. eapply loc_le_trans; [exact (proj1 (proj2 S2))|].
        eapply loc_le_trans; [exact (proj1 (proj2 S3))|exact (proj1 (proj2 S4))].
    - apply within_sur; [eapply loc_le_trans; [exact Lml|exact (proj1 N3)]|].
      rewrite Erl. eapply loc_le_trans; [exact (proj2 (proj2 N3))|]. eapply loc_le_trans; [exact (proj2 (proj2 S4))|exact (proj2 (proj2 S5))].
    - eapply Forall_impl; [|exact F5]. intros [r p arm] (A & B & C). cbn [br_case]. split; [|split; assumption].
      apply within_sur; [|rewrite Erl; exact (proj2 (proj2 A))].
      eapply loc_le_trans; [exact Lml|]. eapply loc_le_trans; [exact (proj1 (proj2 S3))|]. eapply loc_le_trans; [exact (proj1 (proj2 S4))|exact (proj1 A)].
  Qed.
End Levels.

(** Every tree the parser returns, at every depth: every bracketed node contains its contents, the elements of a
    list, the entries of a map, the arguments of a call and the postfix operators of a chain follow one another
    without overlap, the operands of every binary operator and the three parts of a conditional are in source
    order and disjoint, a match contains its scrutinee and every arm; and the whole tree lies between the
    position where parsing started and the position it reached. *)
Theorem parser_positions : forall fuel depth t e t', tzinv t -> p_expr_at fuel depth t = POk e t' ->
  st t t' /\ nd t (expr_range e) t' /\ br fuel e.
Proof.
  induction fuel as [|f IH]; intros depth t e t' Hi H; [discriminate|]. cbn [p_expr_at] in H.
  destruct (32 <=? depth); [discriminate|]. cbn [br].
  refine (p_expr_body_b (p_expr_at f (depth + 1)) _ (br f) _ t Hi e t' H).
  intros t0 Hi0 e0 t0' H0. exact (IH _ _ _ _ Hi0 H0).
Qed.

Corollary program_positions fuel src e t : parse_program fuel src = POk e t ->
  br fuel e /\ bnd (mkLoc 0 0) (expr_range e) (reach t).
Proof.
  unfold parse_program. intros H. apply pbind_ok in H. destruct H as (e0 & t0 & P0 & H). unfold p_expr in P0.
  destruct (parser_positions _ _ _ _ _ (tzinv_init src) P0) as (S0 & N0 & B0).
  apply pbind_ok in H. destruct H as (o & t1 & P1 & H). destruct o; [discriminate|]. injection H as <- <-. split; [exact B0|].
  eapply bnd_widen; [apply loc_le_refl|exact (proj2 (proj2 (st_peek _ _ _ (proj1 S0) P1)))|exact N0].
Qed.
