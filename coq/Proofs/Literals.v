(* Proofs/Literals.v — C13: numeric literals denote the value they spell;
   out-of-range ones are rejected.  The facts about character classes, about
   the scanner and about the first character of a token that the other lexer
   proofs use are here too.  (Strings and bytes: Proofs/StrLit.v.) *)
From Coq Require Import ZArith List Bool Lia.
From Rscel Require Import Base.Prims Base.F64 Base.Text Model.Value Model.Lexer.
Import ListNotations.
Open Scope Z_scope.

Lemma is_digit_iff c : is_digit c = true <-> 48 <= c <= 57.
Proof. unfold is_digit. rewrite andb_true_iff, !Z.leb_le. reflexivity. Qed.

Lemma digit_cases c : is_digit c = true ->
  c = 48 \/ c = 49 \/ c = 50 \/ c = 51 \/ c = 52 \/ c = 53 \/ c = 54 \/ c = 55 \/ c = 56 \/ c = 57.
Proof. rewrite is_digit_iff. lia. Qed.

Lemma is_hex_iff c : is_hex c = true <-> 48 <= c <= 57 \/ 65 <= c <= 70 \/ 97 <= c <= 102.
Proof. unfold is_hex. rewrite !orb_true_iff, !andb_true_iff, !Z.leb_le, is_digit_iff. tauto. Qed.

Lemma hex_val_of c :
  (48 <= c <= 57 -> hex_val c = c - 48) /\ (65 <= c <= 70 -> hex_val c = c - 55) /\ (97 <= c <= 102 -> hex_val c = c - 87).
Proof.
  unfold hex_val. destruct (is_digit c) eqn:D.
  - apply is_digit_iff in D. lia.
  - assert (~ 48 <= c <= 57) by (rewrite <- is_digit_iff, D; discriminate). destruct (Z.leb_spec c 70); lia.
Qed.

Lemma hex_val_range h : is_hex h = true -> 0 <= hex_val h <= 15.
Proof. intros H. apply is_hex_iff in H. pose proof (hex_val_of h). lia. Qed.

Ltac all_false H :=
  apply negb_true_iff in H; repeat (apply orb_false_iff in H; destruct H as [H ?]);
  repeat match goal with E : _ = false |- _ => rewrite E; clear E end.

Definition digits (ds : chars) : Prop := Forall (fun c => is_digit c = true) ds.

Definition dstep (base : Z) (acc : option Z) (c : Z) : option Z :=
  match acc with
  | Some a => if (if base =? 16 then is_hex c else is_digit c) then Some (a * base + hex_val c) else None
  | None => None
  end.

Lemma digits_value_base_fold base ds : ds <> [] -> digits_value_base base ds = fold_left (dstep base) ds (Some 0).
Proof. destruct ds; [congruence|reflexivity]. Qed.

Fixpoint render (base : Z) (dch : Z -> Z) (fuel : nat) (n : Z) (acc : chars) : chars :=
  match fuel with
  | O => acc
  | S f => let acc' := dch (n mod base) :: acc in
           if n <? base then acc' else render base dch f (n / base) acc'
  end.

Definition good_alphabet (base : Z) (dch : Z -> Z) : Prop :=
  forall d, 0 <= d < base -> hex_val (dch d) = d /\ (if base =? 16 then is_hex (dch d) else is_digit (dch d)) = true.

Lemma render_value base dch : 1 < base -> good_alphabet base dch ->
  forall fuel n acc, (0 < fuel)%nat -> 0 <= n < base ^ Z.of_nat fuel ->
  exists ds, render base dch fuel n acc = ds ++ acc /\ ds <> [] /\
             forall a, fold_left (dstep base) ds (Some a) = Some (a * base ^ Z.of_nat (length ds) + n).
Proof.
  intros Hb Hg. induction fuel as [|f IH]; intros n acc Hf Hn.
  - lia.
  - cbn [render]. destruct (n <? base) eqn:L.
    + apply Z.ltb_lt in L. exists [dch (n mod base)]. split; [reflexivity|]. split; [discriminate|].
      intros a. cbn [fold_left dstep length]. rewrite Z.mod_small by lia.
      destruct (Hg n ltac:(lia)) as [Hv Hd]. rewrite Hd, Hv. f_equal. change (Z.of_nat 1) with 1. lia.
    + apply Z.ltb_ge in L.
      assert (Hq : 0 <= n / base < base ^ Z.of_nat f).
      { split; [apply Z.div_pos; lia|]. apply Z.div_lt_upper_bound; [lia|].
        replace (Z.of_nat (S f)) with (Z.of_nat f + 1) in Hn by lia. rewrite Z.pow_add_r in Hn by lia. lia. }
      assert (Hf' : (0 < f)%nat).
      { destruct f; [|lia]. change (Z.of_nat 0) with 0 in Hq. rewrite Z.pow_0_r in Hq.
        assert (n / base = 0) by lia. apply Z.div_small_iff in H; lia. }
      destruct (IH (n / base) (dch (n mod base) :: acc) Hf' Hq) as (ds & E & Hne & Hv).
      exists (ds ++ [dch (n mod base)]). split; [rewrite E, <- app_assoc; reflexivity|].
      split; [destruct ds; discriminate|]. intros a. rewrite fold_left_app, Hv. cbn [fold_left dstep].
      assert (Hm : 0 <= n mod base < base) by (apply Z.mod_pos_bound; lia).
      destruct (Hg (n mod base) Hm) as [Hv' Hd]. rewrite Hd, Hv'. f_equal.
      rewrite app_length. cbn [length]. replace (Z.of_nat (length ds + 1)) with (Z.of_nat (length ds) + 1) by lia.
      rewrite Z.pow_add_r by lia. pose proof (Z.div_mod n base ltac:(lia)). lia.
Qed.

Theorem render_denotes base dch fuel n : 1 < base -> good_alphabet base dch -> (0 < fuel)%nat -> 0 <= n < base ^ Z.of_nat fuel ->
  digits_value_base base (render base dch fuel n []) = Some n.
Proof.
  intros Hb Hg Hf Hn. destruct (render_value base dch Hb Hg fuel n [] Hf Hn) as (ds & E & Hne & Hv).
  rewrite E, app_nil_r. rewrite digits_value_base_fold by assumption. rewrite Hv. f_equal; lia.
Qed.

Lemma render_forall (P : Z -> Prop) base dch : 1 < base -> (forall d, 0 <= d < base -> P (dch d)) ->
  forall fuel n acc, 0 <= n -> Forall P acc -> Forall P (render base dch fuel n acc).
Proof.
  intros Hb Hp. induction fuel as [|f IH]; intros n acc Hn Ha; [exact Ha|]. cbn [render].
  assert (Hm : 0 <= n mod base < base) by (apply Z.mod_pos_bound; lia).
  destruct (n <? base); [constructor; auto|]. apply IH; [apply Z.div_pos; lia|constructor; auto].
Qed.

Lemma render_nonempty base dch fuel n acc : (0 < fuel)%nat -> render base dch fuel n acc <> [].
Proof.
  revert n acc. induction fuel as [|f IH]; intros n acc Hf; [lia|]. cbn [render].
  destruct (n <? base); [discriminate|]. destruct f as [|f']; [cbn; discriminate|]. apply IH. lia.
Qed.

Definition dec_ch (d : Z) : Z := 48 + d.
Definition hex_lower (d : Z) : Z := if d <? 10 then 48 + d else 87 + d.
Definition hex_upper (d : Z) : Z := if d <? 10 then 48 + d else 55 + d.

Lemma dec_ch_good : good_alphabet 10 dec_ch.
Proof.
  intros d Hd. change (hex_val (dec_ch d) = d /\ is_digit (dec_ch d) = true). rewrite is_digit_iff.
  pose proof (hex_val_of (dec_ch d)). unfold dec_ch in *. lia.
Qed.

Lemma hex_lower_good : good_alphabet 16 hex_lower.
Proof.
  intros d Hd. change (hex_val (hex_lower d) = d /\ is_hex (hex_lower d) = true). rewrite is_hex_iff.
  pose proof (hex_val_of (hex_lower d)). unfold hex_lower in *. destruct (Z.ltb_spec d 10); lia.
Qed.

Lemma hex_upper_good : good_alphabet 16 hex_upper.
Proof.
  intros d Hd. change (hex_val (hex_upper d) = d /\ is_hex (hex_upper d) = true). rewrite is_hex_iff.
  pose proof (hex_val_of (hex_upper d)). unfold hex_upper in *. destruct (Z.ltb_spec d 10); lia.
Qed.

Lemma dec_digits_render fuel : forall n acc, dec_digits fuel n acc = render 10 dec_ch fuel n acc.
Proof. induction fuel as [|f IH]; intros n acc; [reflexivity|]. cbn [dec_digits render]. rewrite IH. reflexivity. Qed.

(** [dec_of_nonneg] gives itself one digit per bit, which is enough *)
Lemma pow_log2_bound n : 0 <= n -> n < 10 ^ Z.of_nat (S (Z.to_nat (Z.log2 n))).
Proof.
  intros Hn. destruct (Z.eq_dec n 0) as [->|Hz]; [cbn; lia|].
  assert (Hp : 0 < n) by lia. pose proof (Z.log2_spec n Hp) as [_ Hu]. pose proof (Z.log2_nonneg n) as Hl.
  replace (Z.of_nat (S (Z.to_nat (Z.log2 n)))) with (Z.succ (Z.log2 n)) by lia.
  eapply Z.lt_le_trans; [exact Hu|]. apply Z.pow_le_mono_l. lia.
Qed.

(** every non-negative integer, printed in decimal, reads back as itself *)
Theorem decimal_denotes n : 0 <= n -> digits_value_base 10 (dec_of_nonneg n) = Some n.
Proof.
  intros Hn. unfold dec_of_nonneg. rewrite dec_digits_render.
  apply render_denotes; [lia|exact dec_ch_good|lia|]. split; [assumption|apply pow_log2_bound; assumption].
Qed.

Lemma dec_of_nonneg_digits n : 0 <= n -> Forall (fun c => is_digit c = true) (dec_of_nonneg n) /\ dec_of_nonneg n <> [].
Proof.
  intros Hn. unfold dec_of_nonneg. rewrite dec_digits_render. split.
  - apply render_forall; [lia| |assumption|constructor]. intros d Hd. exact (proj2 (dec_ch_good d Hd)).
  - apply render_nonempty. lia.
Qed.

Definition ends_number (hex : bool) (c : Z) : bool :=
  negb (is_digit c || (hex && is_hex c) || (c =? 101) || (c =? 69) || (c =? 46) || (c =? 117) || (c =? 85)
        || (c =? 120) || (c =? 88)).

Definition tail_ends (hex : bool) (tail : chars) : Prop :=
  match tail with [] => True | c :: _ => ends_number hex c = true end.

Definition no_newline (ds : chars) : Prop := Forall (fun c => c <> 10) ds.

Fixpoint advance (s : scanner) (ds : chars) : scanner :=
  match ds with [] => s | _ :: r => advance (snd (sc_next s)) r end.

Lemma sc_next_cons s c r : sc_rest s = c :: r ->
  sc_next s = (Some c, advance s [c]) /\ sc_rest (advance s [c]) = r.
Proof.
  intros H. cbn [advance]. unfold sc_next. rewrite H. cbn [snd]. split; [reflexivity|]. destruct (c =? 10); reflexivity.
Qed.

Lemma advance_app s a b : advance s (a ++ b) = advance (advance s a) b.
Proof. revert s. induction a as [|x a IH]; intros s; [reflexivity|]. cbn [app advance]. apply IH. Qed.

Lemma advance_rest : forall ds s tail, sc_rest s = ds ++ tail -> sc_rest (advance s ds) = tail.
Proof.
  induction ds as [|d r IH]; intros s tail H; [exact H|]. cbn [advance]. apply IH.
  exact (proj2 (sc_next_cons s d (r ++ tail) H)).
Qed.

Lemma scanner_eta s : s = mkScan (sc_rest s) (sc_line s) (sc_col s).
Proof. destruct s; reflexivity. Qed.

Lemma advance_no_newline : forall ds s tail, no_newline ds -> sc_rest s = ds ++ tail ->
  advance s ds = mkScan tail (sc_line s) (sc_col s + Z.of_nat (length ds)).
Proof.
  induction ds as [|d r IH]; intros s tail Hd Hs.
  - rewrite (scanner_eta s) at 1. cbn [advance length app] in *. rewrite Hs. f_equal. lia.
  - cbn [advance]. assert (E : snd (sc_next s) = mkScan (r ++ tail) (sc_line s) (sc_col s + 1)).
    { unfold sc_next. rewrite Hs. cbn [app]. rewrite (proj2 (Z.eqb_neq d 10) (Forall_inv Hd)). reflexivity. }
    rewrite E, (IH (mkScan (r ++ tail) _ _) tail (Forall_inv_tail Hd) eq_refl). cbn [sc_line sc_col length]. f_equal. lia.
Qed.

Lemma digits_no_newline ds : digits ds -> no_newline ds.
Proof. apply Forall_impl. intros c Hc. apply is_digit_iff in Hc. lia. Qed.

(** [collect_number] with [k] units of fuel beyond the length of the remaining
    input.  Every character read costs one unit, except that an exponent with
    its sign costs one unit for two characters: the surplus never shrinks, and
    the steps below hold for every [k].  [lex_number] starts at [collect 0]. *)
Definition collect (k : nat) (s : scanner) (st : numst) : numst * scanner :=
  collect_number (k + length (sc_rest s)) s st.

Definition put (cs : chars) (fl ex : bool) (st : numst) : numst :=
  mkNum (rev cs ++ n_work st) fl ex (n_uns st) (n_hex st).
Definition push (cs : chars) (st : numst) : numst := put cs (n_float st) (n_exp st) st.

Lemma put_text cs fl ex st : rev (n_work (put cs fl ex st)) = rev (n_work st) ++ cs.
Proof. cbn [put n_work]. rewrite rev_app_distr, rev_involutive. reflexivity. Qed.

Lemma push_text cs st : rev (n_work (push cs st)) = rev (n_work st) ++ cs.
Proof. apply put_text. Qed.

Definition numch (hex : bool) (c : Z) : bool := is_digit c || (hex && is_hex c).

Lemma digits_numch hex ds : digits ds -> Forall (fun c => numch hex c = true) ds.
Proof. apply Forall_impl. intros c Hc. unfold numch. rewrite Hc. reflexivity. Qed.

Lemma hex_numch ds : Forall (fun c => is_hex c = true) ds -> Forall (fun c => numch true c = true) ds.
Proof. apply Forall_impl. intros c Hc. unfold numch. rewrite Hc. apply orb_true_r. Qed.

Definition not_sign_head (r : chars) : Prop := match r with [] => True | p :: _ => ((p =? 43) || (p =? 45)) = false end.

Lemma digits_not_sign_head ds rest : digits ds -> not_sign_head rest -> not_sign_head (ds ++ rest).
Proof.
  intros Hd Hr. destruct ds as [|c r]; [exact Hr|]. pose proof (proj1 (is_digit_iff c) (Forall_inv Hd)).
  apply orb_false_iff. split; apply Z.eqb_neq; lia.
Qed.

Lemma collect_cons k s st c r : sc_rest s = c :: r -> collect k s st = collect_number (S (k + length r)) s st.
Proof. intros Hs. unfold collect. rewrite Hs. cbn [length]. rewrite Nat.add_succ_r. reflexivity. Qed.

Lemma collect_next k s c r st' : sc_rest s = c :: r ->
  collect_number (k + length r) (snd (sc_next s)) st' = collect k (advance s [c]) st'.
Proof. intros Hs. unfold collect. rewrite (proj2 (sc_next_cons s c r Hs)). reflexivity. Qed.

Lemma collect_digit k s st c r : sc_rest s = c :: r -> numch (n_hex st) c = true ->
  collect k s st = collect k (advance s [c]) (push [c] st).
Proof.
  intros Hs Hc. rewrite (collect_cons k s st c r Hs). cbn [collect_number]. unfold sc_peek. rewrite Hs.
  change (is_digit c || (n_hex st && is_hex c)) with (numch (n_hex st) c). rewrite Hc. exact (collect_next k s c r _ Hs).
Qed.

Lemma collect_stop k s st c r : sc_rest s = c :: r -> ends_number (n_hex st) c = true -> collect k s st = (st, s).
Proof.
  intros Hs Hc. rewrite (collect_cons k s st c r Hs). cbn [collect_number]. unfold sc_peek. rewrite Hs.
  all_false Hc. reflexivity.
Qed.

Lemma collect_u k s st c r : sc_rest s = c :: r -> c = 117 \/ c = 85 -> n_float st = false ->
  collect k s st = (mkNum (n_work st) false (n_exp st) true (n_hex st), advance s [c]).
Proof.
  intros Hs Hc Hfl. rewrite (collect_cons k s st c r Hs). cbn [collect_number]. unfold sc_peek. rewrite Hs, Hfl.
  destruct Hc; subst c; rewrite andb_false_r; reflexivity.
Qed.

(** [x]/[X] directly after a single 0; the text gets a lower-case x either way *)
Lemma collect_x k s st c r : sc_rest s = c :: r -> c = 120 \/ c = 88 -> n_work st = [48] -> n_hex st = false ->
  collect k s st = collect k (advance s [c]) (mkNum [120; 48] (n_float st) (n_exp st) (n_uns st) true).
Proof.
  intros Hs Hc Hw Hh. rewrite (collect_cons k s st c r Hs). cbn [collect_number]. unfold sc_peek. rewrite Hs, Hw, Hh.
  destruct Hc; subst c; exact (collect_next k s _ r _ Hs).
Qed.

Lemma collect_point k s st r : sc_rest s = 46 :: r -> not_sign_head r -> n_float st = false -> n_exp st = false ->
  collect k s st = collect k (advance s [46]) (put [46] true false st).
Proof.
  intros Hs Hr Hfl Hex. rewrite (collect_cons k s st 46 r Hs). cbn [collect_number]. unfold sc_peek. rewrite Hs, Hfl, Hex.
  rewrite andb_false_r. cbn [is_digit Z.leb Z.compare Pos.compare Pos.compare_cont andb orb Z.eqb Pos.eqb].
  change (snd (sc_next s)) with (advance s [46]). rewrite (proj2 (sc_next_cons s 46 r Hs)).
  destruct r as [|p r']; [|cbn in Hr; rewrite Hr]; exact (collect_next k s 46 _ _ Hs).
Qed.

Lemma collect_nil k s st : sc_rest s = [] -> collect k s st = (st, s).
Proof. intros H. unfold collect. destruct (k + _)%nat; [reflexivity|]. cbn [collect_number]. unfold sc_peek. rewrite H. reflexivity. Qed.

Lemma collect_end k s st tail : sc_rest s = tail -> tail_ends (n_hex st) tail -> collect k s st = (st, s).
Proof. intros Hs Ht. destruct tail as [|c r]; [apply collect_nil; exact Hs|exact (collect_stop k s st c r Hs Ht)]. Qed.

Lemma collect_run k : forall ds s st rest, sc_rest s = ds ++ rest ->
  Forall (fun c => numch (n_hex st) c = true) ds -> collect k s st = collect k (advance s ds) (push ds st).
Proof.
  induction ds as [|d r IH]; intros s st rest Hs Hd; [destruct st; reflexivity|].
  rewrite (collect_digit k s st d (r ++ rest) Hs (Forall_inv Hd)).
  rewrite (IH (advance s [d]) (push [d] st) rest (proj2 (sc_next_cons s d _ Hs)) (Forall_inv_tail Hd)).
  unfold push, put. cbn [n_work n_float n_exp n_uns n_hex rev advance app]. rewrite <- app_assoc. reflexivity.
Qed.

Lemma collect_exp k s st e sg rest : sc_rest s = e :: sg ++ rest -> e = 101 \/ e = 69 ->
  sg = [] \/ sg = [43] \/ sg = [45] -> not_sign_head rest -> n_hex st = false -> n_exp st = false ->
  collect k s st = collect (length sg + k) (advance s (e :: sg)) (put (e :: sg) true true st).
Proof.
  intros Hs He Hsg Hr Hh Hex. unfold put. rewrite (collect_cons k s st e _ Hs). cbn [collect_number]. unfold sc_peek. rewrite Hs, Hh, Hex.
  change (snd (sc_next s)) with (advance s [e]). rewrite (proj2 (sc_next_cons s e _ Hs)). rewrite orb_false_r.
  assert (Ee : is_digit e = false /\ (e =? 46) = false /\ ((e =? 101) || (e =? 69)) = true)
    by (destruct He; subst e; repeat split; reflexivity).
  destruct Ee as (E1 & E2 & E3). rewrite E1, E2, E3. cbn [orb andb].
  destruct Hsg as [->|Hsg].
  - cbn [app] in *. destruct rest as [|p r']; [|cbn in Hr; rewrite Hr]; exact (collect_next k s e _ _ Hs).
  - assert (exists p, sg = [p] /\ ((p =? 43) || (p =? 45)) = true) as (p & -> & Hp) by (destruct Hsg as [->| ->]; eauto).
    cbn [app] in *. rewrite Hp. cbn [n_work n_exp n_uns n_hex].
    unfold collect. change (advance s [e; p]) with (advance (advance s [e]) [p]).
    destruct (sc_next_cons _ p rest (proj2 (sc_next_cons s e _ Hs))) as [_ E]. rewrite E. cbn [length Nat.add].
    rewrite Nat.add_succ_r. reflexivity.
Qed.

Lemma lex_number_collect s st : collect_number (length (sc_rest s)) s st = collect 0 s st.
Proof. reflexivity. Qed.

(** A decimal integer literal spelled by the printer: the token carries exactly
    that number when it fits 64 bits, and is a syntax error otherwise. *)
Theorem int_literal_denotes n first ds tail s : 0 <= n ->
  dec_of_nonneg n = first :: ds -> sc_rest s = ds ++ tail -> tail_ends false tail ->
  lex_number [first] false s =
  if in_u64 n then LOk (TIntLit n) (advance s ds) else LErr (sc_loc (advance s ds)).
Proof.
  intros Hn E Hs Ht. destruct (dec_of_nonneg_digits n Hn) as [Hd _]. rewrite E in Hd.
  unfold lex_number. rewrite lex_number_collect.
  rewrite (collect_run 0 ds s _ tail Hs (digits_numch _ ds (Forall_inv_tail Hd))).
  rewrite (collect_end 0 _ _ tail (advance_rest ds s tail Hs)) by exact Ht. cbv beta iota zeta.
  rewrite push_text. cbn [push put n_work n_float n_uns n_hex rev app].
  rewrite <- E, decimal_denotes by assumption. reflexivity.
Qed.

Theorem uint_literal_denotes n first ds u tail s : 0 <= n ->
  dec_of_nonneg n = first :: ds -> sc_rest s = ds ++ u :: tail -> (u = 117 \/ u = 85) ->
  lex_number [first] false s =
  if in_u64 n then LOk (TUIntLit n) (advance s (ds ++ [u])) else LErr (sc_loc (advance s (ds ++ [u]))).
Proof.
  intros Hn E Hs Hu. destruct (dec_of_nonneg_digits n Hn) as [Hd _]. rewrite E in Hd.
  unfold lex_number. rewrite lex_number_collect.
  rewrite (collect_run 0 ds s _ (u :: tail) Hs (digits_numch _ ds (Forall_inv_tail Hd))).
  rewrite (collect_u 0 _ _ u tail (advance_rest ds s _ Hs) Hu), <- advance_app by reflexivity. cbv beta iota zeta.
  cbn [n_work n_uns]. rewrite push_text. cbn [push put n_work n_hex rev app].
  rewrite <- E, decimal_denotes by assumption. reflexivity.
Qed.

(** [trim_0x] on a text whose first two characters are variables *)
Lemma trim_0x_unfold f s :
  trim_0x (S f) s = match s with
                    | a :: b :: r => if (a =? 48) && (b =? 120) then trim_0x f r else s
                    | _ => s
                    end.
Proof.
  cbn [trim_0x]. destruct s as [|a [|b r]]; [reflexivity| |].
  - destruct a as [|p|p]; try reflexivity. do 7 (try (destruct p as [p|p|]; try reflexivity)).
  - destruct (Z.eqb_spec a 48) as [->|Ha]; cbn [andb].
    + destruct (Z.eqb_spec b 120) as [->|Hb]; [reflexivity|].
      destruct b as [|p|p]; try reflexivity. do 8 (try (destruct p as [p|p|]; try reflexivity)). congruence.
    + destruct a as [|p|p]; try reflexivity. do 7 (try (destruct p as [p|p|]; try reflexivity)). congruence.
Qed.

Lemma trim_0x_hex fuel ds : Forall (fun c => is_hex c = true) ds -> trim_0x fuel ds = ds.
Proof.
  intros H. destruct fuel as [|f]; [reflexivity|]. rewrite trim_0x_unfold.
  destruct ds as [|a [|b r]]; try reflexivity.
  destruct (Z.eqb_spec b 120) as [->|Hb]; [|rewrite andb_false_r; reflexivity].
  exfalso. pose proof (Forall_inv (Forall_inv_tail H)) as Hx. cbn in Hx. discriminate.
Qed.

Theorem hex_literal_denotes dch fuel n x tail s : good_alphabet 16 dch -> (0 < fuel)%nat -> 0 <= n < 16 ^ Z.of_nat fuel ->
  (x = 120 \/ x = 88) ->
  sc_rest s = x :: render 16 dch fuel n [] ++ tail -> tail_ends true tail ->
  exists s', sc_rest s' = tail /\
  lex_number [48] false s = if in_u64 n then LOk (TIntLit n) s' else LErr (sc_loc s').
Proof.
  intros Hg Hf Hn Hx Hs Ht. set (ds := render 16 dch fuel n []) in *.
  assert (Hd : Forall (fun c => is_hex c = true) ds).
  { apply render_forall; [lia| |lia|constructor]. intros d Hd. exact (proj2 (Hg d Hd)). }
  pose proof (proj2 (sc_next_cons s x _ Hs)) as Hs1.
  exists (advance (advance s [x]) ds). split; [exact (advance_rest ds _ tail Hs1)|].
  unfold lex_number. rewrite lex_number_collect.
  rewrite (collect_x 0 s _ x _ Hs Hx) by reflexivity.
  rewrite (collect_run 0 ds _ _ tail Hs1) by exact (hex_numch ds Hd).
  rewrite (collect_end 0 _ _ tail (advance_rest ds _ tail Hs1)) by exact Ht. cbv beta iota zeta.
  rewrite push_text. cbn [push put n_work n_float n_uns n_hex rev app length].
  change (trim_0x _ (48 :: 120 :: ds)) with (trim_0x (S (length ds)) ds). rewrite (trim_0x_hex _ ds Hd). unfold ds. rewrite render_denotes by (assumption || lia). reflexivity.
Qed.

Definition wrap_tok (start : loc) (r : lres token) : lres (option tokloc) :=
  match r with
  | LOk t s2 => LOk (Some (mkTok t (mkRange start (sc_loc s2)))) s2
  | LErr l => LErr l
  | LFuel => LFuel
  end.

Lemma collect_token_digit d r l c : is_digit d = true ->
  collect_token (mkScan (d :: r) l c) = wrap_tok (mkLoc l c) (lex_number [d] false (mkScan r l (c + 1))).
Proof.
  intros Hd. apply digit_cases in Hd. repeat destruct Hd as [->|Hd]; try subst d; reflexivity.
Qed.

Definition single_token (src : chars) (tk : token) : Prop :=
  exists rng send, collect_token (mkScan src 0 0) = LOk (Some (mkTok tk rng)) send /\ sc_rest send = [].

Lemma single_token_wrap src start r tk send :
  collect_token (mkScan src 0 0) = wrap_tok start r -> r = LOk tk send -> sc_rest send = [] -> single_token src tk.
Proof. intros E -> He. exists (mkRange start (sc_loc send)), send. split; assumption. Qed.

Definition dec_value (ds : chars) (acc : Z) : Z := fold_left (fun a c => a * 10 + (c - 48)) ds acc.

Definition not_digit_head (r : chars) : Prop := match r with [] => True | c :: _ => is_digit c = false end.

Lemma split_digits_run : forall ds rest acc n, digits ds -> not_digit_head rest ->
  split_digits (ds ++ rest) acc n = (dec_value ds acc, n + Z.of_nat (length ds), rest).
Proof.
  induction ds as [|d r IH]; intros rest acc n Hd Hr.
  - cbn [app dec_value fold_left length]. destruct rest as [|c t]; cbn [split_digits].
    + f_equal. f_equal. lia.
    + cbn in Hr. rewrite Hr. f_equal. f_equal. lia.
  - cbn [app split_digits]. rewrite (Forall_inv Hd). rewrite (IH rest _ _ (Forall_inv_tail Hd) Hr).
    cbn [dec_value fold_left length]. f_equal. f_equal. lia.
Qed.

Lemma split_digits_all ds acc n : digits ds -> split_digits ds acc n = (dec_value ds acc, n + Z.of_nat (length ds), []).
Proof. intros Hd. rewrite <- (app_nil_r ds) at 1. exact (split_digits_run ds [] acc n Hd I). Qed.

Definition strip_sign (s : list Z) : bool * list Z :=
  match s with 43 :: r => (false, r) | 45 :: r => (true, r) | _ => (false, s) end.

Lemma strip_sign_digit d r : is_digit d = true -> strip_sign (d :: r) = (false, d :: r).
Proof. intros H. apply digit_cases in H. repeat destruct H as [->|H]; try subst d; reflexivity. Qed.

(** "I.F": the literal denotes [dec_to_f64] of the digits read as one integer, scaled by 10^-|F| *)
Theorem float_text_plain ip fp :
  Forall (fun c => is_digit c = true) ip -> Forall (fun c => is_digit c = true) fp -> (0 < length ip + length fp)%nat ->
  parse_float_text (ip ++ 46 :: fp) = Some (dec_to_f64 (dec_value (ip ++ fp) 0) (- Z.of_nat (length fp))).
Proof.
  intros Hi Hf Hl. unfold parse_float_text.
  rewrite (split_digits_run ip (46 :: fp) 0 0 Hi eq_refl), (split_digits_all fp _ 0 Hf).
  destruct (_ =? 0) eqn:E; [apply Z.eqb_eq in E; lia|].
  unfold dec_value. rewrite fold_left_app. repeat f_equal; lia.
Qed.

(** "I.FeSX" / "IeSX": exponent X with optional sign S; the model caps huge exponents at a
    point where the value is already 0 or infinity (the theorem covers exponents below the cap) *)
Theorem float_text_exp ip fp ex sgn e :
  Forall (fun c => is_digit c = true) ip -> Forall (fun c => is_digit c = true) fp ->
  Forall (fun c => is_digit c = true) ex -> (0 < length ip + length fp)%nat -> (0 < length ex)%nat ->
  (e = 101 \/ e = 69) -> (sgn = [] \/ sgn = [43] \/ sgn = [45]) ->
  dec_value ex 0 <= Z.of_nat (length ip) + Z.of_nat (length fp) + 2000 ->
  parse_float_text (ip ++ 46 :: fp ++ e :: sgn ++ ex) =
  Some (dec_to_f64 (dec_value (ip ++ fp) 0)
          ((match sgn with [45] => - dec_value ex 0 | _ => dec_value ex 0 end) - Z.of_nat (length fp))).
Proof.
  intros Hi Hf Hx Hl Hlx He Hs Hcap. unfold parse_float_text.
  rewrite (split_digits_run ip (46 :: fp ++ e :: sgn ++ ex) 0 0 Hi eq_refl).
  rewrite (split_digits_run fp (e :: sgn ++ ex) _ 0 Hf) by (destruct He; subst e; reflexivity).
  destruct (_ =? 0) eqn:E; [apply Z.eqb_eq in E; lia|].
  replace ((e =? 101) || (e =? 69)) with true by (destruct He; subst e; reflexivity).
  assert (Es : strip_sign (sgn ++ ex) = (match sgn with [45] => true | _ => false end, ex)).
  { destruct Hs as [->|[->| ->]]; try reflexivity.
    destruct ex as [|d r]; [cbn in Hlx; lia|exact (strip_sign_digit d r (Forall_inv Hx))]. }
  unfold strip_sign in Es. rewrite Es, (split_digits_all ex 0 0 Hx).
  destruct (0 + Z.of_nat (length ex) =? 0) eqn:E2; [apply Z.eqb_eq in E2; lia|].
  rewrite Z.min_l by lia. unfold dec_value. rewrite fold_left_app.
  destruct Hs as [->|[->| ->]]; repeat f_equal; lia.
Qed.
