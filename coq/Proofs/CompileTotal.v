(* Proofs/CompileTotal.v — C01: the compiler model never answers with the panic outcome, for any source:
   labels always resolve (Proofs/CompileWf.v), compile-time evaluation never panics (Proofs/Total.v), and
   the parser hands the compiler only trees whose type patterns name built-in types (Proofs/ParseTp.v). *)
From Coq Require Import ZArith List Bool Lia.
From Rscel Require Import Base.Prims Base.F64 Base.Text Model.Value Model.Ops Model.Funcs Model.Interp
     Model.Lexer Model.Ast Model.Parser Model.Compile Proofs.CompileMonad Proofs.Asm Proofs.TreeAlg Proofs.CompileWf Proofs.Total Proofs.ParseTp.
Import ListNotations.
Local Open Scope nat_scope.

Definition cnp {A} (r : cres A) : Prop := r <> CPanic.

Lemma cbind_np {A B} (m : C A) (f : A -> C B) n :
  cnp (m n) -> (forall a n', m n = COk a n' -> cnp (f a n')) -> cnp (cbind m f n).
Proof. unfold cnp, cbind. intros Hm Hf. destruct (m n) as [a n'| | | |]; try discriminate; [eapply Hf; reflexivity|congruence]. Qed.
Lemma cret_np {A} (a : A) n : cnp (cret a n).
Proof. unfold cnp, cret. discriminate. Qed.

Lemma cbind_ret_np {A B} (m : C A) (g : A -> B) n : cnp (m n) -> cnp ((let+ a := m in cret (g a)) n).
Proof. intros H. apply cbind_np; [exact H|]. intros a n1 _. apply cret_np. Qed.

Lemma cbind2_np {A B D} (m1 : C A) (m2 : C B) (g : A -> B -> D) n :
  cnp (m1 n) -> (forall n1, cnp (m2 n1)) -> cnp ((let+ a := m1 in let+ b := m2 in cret (g a b)) n).
Proof. intros H1 H2. apply cbind_np; [exact H1|]. intros a n1 _. apply cbind_ret_np, H2. Qed.

Lemma resolve_or_panic_np c n : (exists bc, resolve c = Some bc) -> cnp (resolve_or_panic c n).
Proof. intros (bc & H). unfold cnp, resolve_or_panic. rewrite H. discriminate. Qed.

Lemma check_for_const_np fuel node n : (exists bc, resolve (into_bytecode (cp_node node)) = Some bc) -> cnp (check_for_const fuel node n).
Proof.
  intros Hr. unfold check_for_const. apply cbind_np; [apply resolve_or_panic_np; exact Hr|]. intros bc n' _.
  pose proof (vm_never_panics fuel compile_env bc true O []) as Hv.
  destruct (run fuel compile_env bc true 0 []) as [[v|e| | |] lg]; cbn [fst] in Hv; try congruence.
  all: try (unfold cnp; discriminate); try apply cret_np.
  destruct (runtime_requested lg || contains_err v); apply cret_np.
Qed.

Section Level.
  Variable fuel : nat.
  Variable rec_expr : expr -> C cprog.
  Variable R : expr -> Prop.
  Hypothesis Hnp : forall e n, R e -> cnp (rec_expr e n).
  Hypothesis Hgood : forall e n cp n', rec_expr e n = COk cp n' -> good n n' (cp_node cp).
  Hypothesis Hsrc : forall s e t, p_expr fuel (tz_init s) = POk e t -> R e.

  Lemma c_list_np : forall es n, Forall R es -> cnp (c_list rec_expr es n).
  Proof.
    induction es as [|e r IH]; intros n H; cbn [c_list]; [apply cret_np|]. inversion H; subst.
    apply cbind_np; [apply Hnp; assumption|]. intros x n1 _. apply cbind_ret_np, IH. assumption.
  Qed.

  Lemma c_lit_np l n : cnp (c_lit fuel rec_expr l n).
  Proof.
    destruct l; cbn [c_lit]; try apply cret_np.
    match goal with |- cnp (?go segs [] [] O n) => assert (G : forall segs0 acc ps k n0, cnp (go segs0 acc ps k n0)); [|apply G] end.
    induction segs0 as [|sg r IH]; intros acc ps k n0; [apply cret_np|]. destruct sg as [s|s]; [apply IH|].
    destruct (p_expr fuel (tz_init s)) as [e t| |] eqn:Hp; try (unfold cnp; discriminate).
    pose proof (Hnp e O (Hsrc _ _ _ Hp)) as He. destruct (rec_expr e O) as [cp ne| | | |] eqn:Hc; try (unfold cnp; discriminate); [|congruence].
    destruct (good_resolves _ _ _ (Hgood _ _ _ _ Hc)) as (code & H & Rc & _). rewrite Rc. apply IH.
  Qed.

  Lemma c_primary_np p n : tp_primary R p -> cnp (c_primary fuel rec_expr p n).
  Proof.
    destruct p; cbn [c_primary tp_primary]; intros H.
    - apply cret_np.
    - apply Hnp. exact H.
    - apply cbind_ret_np, c_list_np, H.
    - apply cbind_ret_np.
      revert n. induction H as [|[r0 k v] rest [Hk Hv] _ IH]; intros n; [apply cret_np|].
      apply cbind_np; [apply Hnp; exact Hk|]. intros ck n1 _. apply cbind_np; [apply Hnp; exact Hv|]. intros cv n2 _.
      apply cbind_ret_np, IH.
    - apply c_lit_np.
  Qed.

  Lemma c_mprime_np cur m n0 n : n0 <= n -> good n0 n (cp_node cur) -> tp_mprime R m -> cnp (c_mprime fuel rec_expr cur m n).
  Proof.
    intros Hle Gc H. destruct m; cbn [c_mprime tp_mprime] in *.
    - destruct (cp_node cur) as [c|o]; [apply cret_np|].
      match goal with |- cnp ((match ?fo with Some _ => _ | None => _ end) _) => destruct fo end; apply cret_np.
    - match goal with |- cnp (cbind (?g args) _ n) => assert (Gp : forall l m, Forall R l -> cnp (g l m)) end.
      { intros l m Hl. revert m. induction Hl as [|a rest Ha _ IH]; intros m; [apply cret_np|].
        apply cbind_np; [apply Hnp; exact Ha|]. intros ca n1 Hca.
        apply cbind_np; [apply resolve_or_panic_np; destruct (good_resolves _ _ _ (Hgood _ _ _ _ Hca)) as (code & Hh & Rc & _); eauto|]. intros bc n2 _.
        apply cbind_ret_np, IH. }
      apply cbind_np; [apply Gp; exact H|].
      intros [pushes ps] n1 Hp. apply check_for_const_np. cbn [cp_node into_bytecode fst snd].
      destruct (call_node_good rec_expr Hgood cur args n0 n _ _ Gc Hp) as [_ Gn].
      destruct (good_resolves _ _ _ Gn) as (code & Hh & Rc & _). eauto.
    - apply cbind_ret_np, Hnp, H.
  Qed.

  Lemma c_member_np m n : tp_member R m -> cnp (c_member fuel rec_expr m n).
  Proof.
    destruct m as [r p ms]. cbn [c_member tp_member]. intros [Hp Hms].
    apply cbind_np; [apply c_primary_np; exact Hp|]. intros cp n1 Hcp.
    pose proof (c_primary_good fuel rec_expr Hgood _ _ _ _ Hcp) as G0. pose proof (good_le _ _ _ G0) as L1. clear Hcp. revert cp n1 L1 G0.
    induction Hms as [|x rest Hx _ IH]; intros cur n1 L1 G0; [apply cret_np|].
    apply cbind_np; [eapply c_mprime_np; eauto|]. intros c' n2 Hc'.
    destruct (c_mprime_good fuel rec_expr Hgood cur x n n1 c' n2 L1 G0 Hc') as [L2 G2]. apply (IH c' n2); [lia|exact G2].
  Qed.

  Lemma c_unary_np u n : tp_unary R u -> cnp (c_unary fuel rec_expr u n).
  Proof.
    destruct u; cbn [c_unary tp_unary]; intros H; [apply c_member_np; exact H| |];
      apply cbind_ret_np, c_member_np, H.
  Qed.
  Lemma c_mult_np : forall e n, tp_mult R e -> cnp (c_mult fuel rec_expr e n).
  Proof.
    induction e as [r l IH op u|r u]; intros n H; cbn [c_mult tp_mult] in *; [|apply c_unary_np; exact H]. destruct H as [Hl Hu].
    apply cbind2_np; [apply IH; exact Hl|intros n1; apply c_unary_np; exact Hu].
  Qed.
  Lemma c_addn_np : forall e n, tp_addn R e -> cnp (c_addn fuel rec_expr e n).
  Proof.
    induction e as [r l IH op u|r u]; intros n H; cbn [c_addn tp_addn] in *; [|apply c_mult_np; exact H]. destruct H as [Hl Hu].
    apply cbind2_np; [apply IH; exact Hl|intros n1; apply c_mult_np; exact Hu].
  Qed.
  Lemma c_rel_np : forall e n, tp_rel R e -> cnp (c_rel fuel rec_expr e n).
  Proof.
    induction e as [r l IH op u|r u]; intros n H; cbn [c_rel tp_rel] in *; [|apply c_addn_np; exact H]. destruct H as [Hl Hu].
    apply cbind2_np; [apply IH; exact Hl|intros n1; apply c_addn_np; exact Hu].
  Qed.
  Lemma c_cand_chain_np : forall e lbl n, tp_cand R e -> cnp (c_cand_chain fuel rec_expr e lbl n).
  Proof.
    induction e as [r l IH u|r u]; intros lbl n H; cbn [c_cand_chain tp_cand] in *; [|apply c_rel_np; exact H]. destruct H as [Hl Hu].
    apply cbind2_np; [apply IH; exact Hl|intros n1; apply c_rel_np; exact Hu].
  Qed.
  Lemma c_cand_np e n : tp_cand R e -> cnp (c_cand fuel rec_expr e n).
  Proof.
    intros H. unfold c_cand. rewrite cbind_new_label. apply cbind_ret_np, c_cand_chain_np, H.
  Qed.
  Lemma c_cor_chain_np : forall e lbl n, tp_cor R e -> cnp (c_cor_chain fuel rec_expr e lbl n).
  Proof.
    induction e as [r l IH u|r u]; intros lbl n H; cbn [c_cor_chain tp_cor] in *; [|apply c_cand_np; exact H]. destruct H as [Hl Hu].
    apply cbind2_np; [apply IH; exact Hl|intros n1; apply c_cand_np; exact Hu].
  Qed.
  Lemma c_cor_np e n : tp_cor R e -> cnp (c_cor fuel rec_expr e n).
  Proof.
    intros H. unfold c_cor. rewrite cbind_new_label. apply cbind_ret_np, c_cor_chain_np, H.
  Qed.

  Lemma c_pattern_np p n : tp_pattern R p -> cnp (c_pattern fuel rec_expr p n).
  Proof.
    destruct p; cbn [c_pattern tp_pattern]; intros H.
    - apply cbind_ret_np, c_cor_np, H.
    - rewrite H. apply cret_np.
    - apply cret_np.
  Qed.

  Lemma c_expr_body_np e n : tp_expr_body R e -> cnp (c_expr_body fuel rec_expr e n).
  Proof.
    destruct e; cbn [c_expr_body tp_expr_body]; intros H.
    - destruct H as (Hc & Ht & Hf).
      apply cbind_np; [apply c_cor_np; exact Hc|]. intros cc n1 _. apply cbind_np; [apply c_cor_np; exact Ht|]. intros ct n2 _.
      apply cbind_np; [apply Hnp; exact Hf|]. intros cf n3 _.
      destruct (cp_node cc) as [cb|v].
      + rewrite !cbind_new_label. apply cret_np.
      + destruct (is_err v); [|destruct (is_truthy v)]; apply cret_np.
    - destruct H as [Hc Hcases].
      apply cbind_np; [apply Hnp; exact Hc|]. intros cc n1 _.
      apply cbind_np.
      + clear -Hcases Hnp Hgood Hsrc. revert n1. induction Hcases as [|[rc p arm] rest [Hp Ha] _ IH]; intros n1; [apply cret_np|].
        apply cbind_np; [apply c_pattern_np; exact Hp|]. intros cp m1 _. apply cbind_np; [apply Hnp; exact Ha|]. intros ca m2 _.
        apply cbind_ret_np, IH.
      + intros [parts pps] n2 _. rewrite cbind_new_label. apply cbind_ret_np. cbn [fst].
        generalize (S n2). clear. induction parts as [|[pb eb] r IH]; intros m1; [apply cret_np|].
        rewrite cbind_new_label. apply cbind_ret_np, IH.
    - apply c_cor_np. exact H.
  Qed.
End Level.

Theorem c_expr_np : forall fuel e n, tp fuel e -> cnp (c_expr fuel e n).
Proof.
  induction fuel as [|f IH]; intros e n H; [unfold cnp; cbn; discriminate|]. cbn [c_expr tp] in *.
  apply (c_expr_body_np f (c_expr f) (tp f)); [exact IH|apply c_expr_good| |exact H].
  intros s e0 t Hp. unfold p_expr in Hp. eapply parser_type_patterns; eauto.
Qed.

Theorem compile_source_never_panics fuel src : compile_source fuel src <> CPanic.
Proof.
  unfold compile_source. destruct (parse_program fuel src) as [e t| |] eqn:Hp; try discriminate.
  assert (Ht : tp fuel e).
  { unfold parse_program, pbind in Hp. destruct (p_expr fuel (tz_init src)) as [e0 t0| |] eqn:Pe; try discriminate.
    destruct (peek t0) as [o t1| |]; try discriminate. destruct o; try discriminate. injection Hp as <- _.
    unfold p_expr in Pe. eapply parser_type_patterns; eauto. }
  pose proof (c_expr_np fuel e 0 Ht) as Hn. destruct (c_expr fuel e 0) as [cp n| | | |] eqn:Hc; try discriminate; [|congruence].
  destruct (compiled_code_is_valid _ _ _ _ _ Hc) as (code & H & Hr & _). rewrite Hr. discriminate.
Qed.

Theorem compile_checked_never_panics fuel src : compile_checked fuel src <> CPanic.
Proof. unfold compile_checked. destruct (_ <? _)%Z; [discriminate|apply compile_source_never_panics]. Qed.
