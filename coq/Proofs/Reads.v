(* Proofs/Reads.v — C17: every identifier a compiled program can resolve is one of its reported
   parameters or the name of a built-in type, which a type pattern pushes (field names after '.' are
   not resolved and are not parameters). *)
From Coq Require Import ZArith List Bool Lia.
From Rscel Require Import Base.Prims Base.F64 Base.Text Model.Value Model.Ops Model.Dispatch Model.Funcs Model.Interp
     Model.Lexer Model.Ast Model.Parser Model.Compile Proofs.ValueInd Proofs.Fold Proofs.Params Proofs.Asm Proofs.EqSym Proofs.OpsColl.
From Rscel Require Import Proofs.Relevance.
Import ListNotations.
Import Coq.Strings.String.StringSyntax.
Open Scope Z_scope.

Lemma okv_mono (S S' : bytes -> Prop) : (forall n, S n -> S' n) -> forall v, okv S v -> okv S' v.
Proof.
  intros HS.
  apply (value_instr_ind (fun v => okv S v -> okv S' v) (fun i => match i with IPush v => okv S v -> okv S' v | _ => True end)).
  - intros l H. rewrite !okv_list. intros Hl. rewrite Forall_forall in *. auto.
  - intros m H. rewrite !okv_map. intros Hm. rewrite Forall_forall in *. auto.
  - intros c H. change (okc S c -> okc S' c). rewrite !okc_resolvable, !Forall_forall. intros Hc v Hv.
    rewrite Forall_forall in H. exact (H (IPush v) (resolvable_pushed c v Hv) (Hc v Hv)).
  - intros v Hv. destruct v; try contradiction; try (intros _; exact I). cbn. apply HS.
  - intros v H. exact H.
  - intros i Hi. destruct i; try exact I. contradiction.
Qed.

(** Code that still carries labels.  A label keeps a slot of its own until the jumps are resolved, so a push
    that stands before a label counts as resolvable whatever follows the label: [slot] puts an instruction
    that neither pushes nor takes a name in its place, and [okp] is [okc] of the slots. *)
Definition slot (x : pcp) : instr :=
  match x with PBc i => i | PJmp _ | PLabel _ => IJmp 0 | PJmpCond w _ => IJmpCond w 0 end.

Lemma resolve_at_name_push v p pos locs c :
  resolve_at p pos locs = Some c -> name_push v (map slot p) = true -> name_push v c = true.
Proof.
  intros R N. destruct v; try discriminate N.
  destruct p as [|[[]| | |] p']; try discriminate N; cbn [resolve_at] in R;
    destruct (resolve_at p' _ locs); try discriminate R; injection R as <-; reflexivity.
Qed.

(** resolving the jumps only drops the labels, which can bring a push next to an Access *)
Lemma resolve_at_resolvable p : forall pos locs c, resolve_at p pos locs = Some c -> incl (resolvable c) (resolvable (map slot p)).
Proof.
  induction p as [|x p IH]; intros pos locs c; cbn [resolve_at].
  { intros E. injection E as <-. apply incl_refl. }
  destruct x as [i|l|w l|l]; try exact (IH pos locs c).
  - destruct (resolve_at p (Datatypes.S pos) locs) as [c'|] eqn:R; [|discriminate]. intros E. injection E as <-.
    pose proof (IH _ _ _ R) as Hc'. destruct i; try exact Hc'. cbn [map slot resolvable].
    destruct (name_push v (map slot p)) eqn:N; [rewrite (resolve_at_name_push v p _ _ c' R N); exact Hc'|].
    destruct (name_push v c'); [apply incl_tl; exact Hc'|].
    intros x [<-|Hx]; [left; reflexivity|right; exact (Hc' x Hx)].
  - destruct (find_label l locs); [|discriminate]. destruct (resolve_at p (Datatypes.S pos) locs) as [c'|] eqn:R; [|discriminate].
    intros E. injection E as <-. exact (IH _ _ _ R).
  - destruct (find_label l locs); [|discriminate]. destruct (resolve_at p (Datatypes.S pos) locs) as [c'|] eqn:R; [|discriminate].
    intros E. injection E as <-. exact (IH _ _ _ R).
Qed.

Section Okp.
  Variable S : bytes -> Prop.

  Fixpoint okp (p : pcode) : Prop :=
    match p with
    | [] => True
    | PBc (IPush v) :: r =>
        match v, r with
        | VIdent _, PBc IAccess :: _ => okp r
        | VIdent _, PBc (ICall _) :: _ => okp r
        | _, _ => okv S v /\ okp r
        end
    | _ :: r => okp r
    end.

  Lemma okp_slots p : okp p <-> okc S (map slot p).
  Proof.
    induction p as [|x r IH]; [exact (iff_refl _)|].
    destruct x as [i| | |]; try exact IH. destruct i; try exact IH.
    destruct v; try exact (and_iff_compat_l _ IH).
    destruct r as [|[[]| | |] r']; first [exact IH | exact (and_iff_compat_l _ IH)].
  Qed.

  Lemma okp_cons_push v r : okv S v -> okp r -> okp (PBc (IPush v) :: r).
  Proof. rewrite !okp_slots. cbn [map slot]. rewrite okc_push. destruct (name_push v (map slot r)); auto. Qed.

  Lemma okp_cons_other x r : match x with PBc (IPush _) => False | _ => True end -> okp r -> okp (x :: r).
  Proof. intros Hx Hr. destruct x as [i|l|w l|l]; try exact Hr. destruct i; try exact Hr. contradiction. Qed.

  Lemma okp_app a b : okp a -> okp b -> okp (a ++ b).
  Proof. rewrite !okp_slots, map_app. apply okc_app. Qed.

  Lemma okp_of_code bc : okc S bc -> okp (of_code bc).
  Proof. rewrite okp_slots. unfold of_code. rewrite map_map, map_id. auto. Qed.

  Lemma okp_resolve' p c : okp p -> resolve p = Some c -> okc S c.
  Proof.
    unfold resolve. destruct (label_locs p 0 []); [|discriminate]. rewrite okp_slots, !okc_resolvable. intros H R.
    exact (incl_Forall (resolve_at_resolvable p _ _ c R) H).
  Qed.
End Okp.

Lemma okp_mono (S S' : bytes -> Prop) : (forall n, S n -> S' n) -> forall p, okp S p -> okp S' p.
Proof. intros HS p. rewrite !okp_slots. exact (okv_mono S S' HS (VCode (map slot p))). Qed.

Definition inS (ps : list bytes) (n : bytes) : Prop := In n ps \/ is_type_name n = true.
Definition bc_of' (c : cprog) : pcode := into_bytecode (cp_node c).
Definition rd (cp : cprog) : Prop := okp (inS (cp_params cp)) (bc_of' cp).

Lemma inS_incl ps ps' : incl ps ps' -> forall n, inS ps n -> inS ps' n.
Proof. intros H n [A|A]; [left; apply H; exact A|right; exact A]. Qed.
Lemma okp_weaken ps ps' p : incl ps ps' -> okp (inS ps) p -> okp (inS ps') p.
Proof. intros H. apply okp_mono. apply inS_incl. exact H. Qed.
Lemma okp_inl ps ps' p : okp (inS ps) p -> okp (inS (ps ++ ps')) p.
Proof. apply okp_weaken, incl_appl, incl_refl. Qed.
Lemma okp_inr ps ps' p : okp (inS ps') p -> okp (inS (ps ++ ps')) p.
Proof. apply okp_weaken, incl_appr, incl_refl. Qed.
Lemma okv_weaken ps ps' v : incl ps ps' -> okv (inS ps) v -> okv (inS ps') v.
Proof. intros H. apply okv_mono. apply inS_incl. exact H. Qed.

Lemma okp_push1 S v : okp S [PBc (IPush v)] <-> okv S v.
Proof. cbn [okp]. destruct v; tauto. Qed.

Lemma agree_compile_env S : agree S compile_env compile_env.
Proof. constructor; cbn; auto; try discriminate. Qed.

Lemma okp_repeat S i k : match i with IPush _ => False | _ => True end -> okp S (repeat (PBc i) k).
Proof. intros Hi. induction k as [|k IH]; [exact I|]. cbn [repeat]. apply okp_cons_other; [destruct i; auto|exact IH]. Qed.

Section Level.
  Variable fuel : nat.
  Variable rec_expr : expr -> C cprog.
  Hypothesis Hrec : forall e n cp n', rec_expr e n = COk cp n' -> rd cp.

  Lemma rd_compile2 op f a b : (forall S, ok2 S f) -> match op with IPush _ => False | _ => True end ->
    rd a -> rd b -> rd (compile2 op f a b).
  Proof.
    intros Hf Hop Ha Hb. unfold rd, bc_of' in *. unfold compile2, union.
    pose proof (okp_inl _ (cp_params b) _ Ha) as Wa. pose proof (okp_inr (cp_params a) _ _ Hb) as Wb.
    destruct (cp_node a) as [ca|x] eqn:Ea, (cp_node b) as [cb|y] eqn:Eb; cbn [cp_node cp_params into_bytecode] in *;
      try (apply okp_app; [exact Wa|apply okp_app; [exact Wb|apply okp_cons_other; [exact Hop|exact I]]]).
    apply okp_push1. apply Hf; apply okp_push1; assumption.
  Qed.

  Lemma rd_append_result a b : rd a -> rd b -> rd (append_result a b).
  Proof.
    intros Ha Hb. unfold rd, bc_of', append_result, union in *. cbn [cp_node cp_params into_bytecode].
    apply okp_app; [exact (okp_inl _ _ _ Ha)|exact (okp_inr _ _ _ Hb)].
  Qed.

  Lemma rd_check_for_const node n cp n' : rd node -> check_for_const fuel node n = COk cp n' -> rd cp.
  Proof.
    intros Hn H. destruct (check_for_const_ok _ _ _ _ _ H) as (bc & R & P & Hnode).
    pose proof (okp_resolve' _ _ _ Hn R) as Hbc. unfold rd, bc_of'. rewrite P.
    destruct Hnode as [->|(v & lg & -> & Hrun & _)]; cbn [into_bytecode].
    - apply okp_of_code. exact Hbc.
    - apply okp_push1.
      exact (proj2 (vm_relevant (inS (cp_params node)) fuel compile_env compile_env bc true O (agree_compile_env _) Hbc []) v lg Hrun).
  Qed.

  Definition rds (cs : list cprog) : Prop := Forall rd cs.

  Lemma c_list_rd : forall es n cs n', c_list rec_expr es n = COk cs n' -> rds cs.
  Proof.
    induction es as [|e r IH]; intros n cs n' H; cbn [c_list] in H.
    - injection H as <- _. constructor.
    - cinv H. cinv H. injection H as <- _. constructor; [eapply Hrec; eauto|eapply IH; eauto].
  Qed.

  Lemma flat_codes_ok cs : rds cs -> okp (inS (flat_map cp_params cs)) (flat_map (fun c => into_bytecode (cp_node c)) cs).
  Proof.
    induction 1 as [|c r Hc _ IH]; [exact I|]. cbn [flat_map]. apply okp_app.
    - exact (okp_inl _ _ _ Hc).
    - exact (okp_inr _ _ _ IH).
  Qed.

  Lemma all_const_ok cs vs : rds cs -> all_const cs = Some vs -> Forall (okv (inS (flat_map cp_params cs))) vs.
  Proof.
    intros H. revert vs. induction H as [|c r Hc _ IH]; intros vs; cbn [all_const fold_right flat_map].
    - intros E. injection E as <-. constructor.
    - fold (all_const r). unfold rd, bc_of' in Hc. destruct (cp_node c) as [b|v] eqn:Ec; [discriminate|].
      destruct (all_const r) as [vs'|]; [|discriminate]. intros E. injection E as <-. constructor.
      + eapply okv_weaken; [apply incl_appl, incl_refl|]. apply okp_push1. exact Hc.
      + eapply Forall_impl; [|apply IH; reflexivity]. intros v0. apply okv_weaken. apply incl_appr, incl_refl.
  Qed.

  Lemma rd_from_children cs op f : match op with IPush _ => False | _ => True end ->
    (forall S vs, Forall (okv S) vs -> okv S (f vs)) -> rds cs -> rd (from_children cs op f).
  Proof.
    intros Hop Hf H. unfold rd, bc_of', from_children. destruct (all_const cs) as [vs|] eqn:A; cbn [cp_node cp_params into_bytecode].
    - apply okp_push1. apply Hf. eapply all_const_ok; eauto.
    - apply okp_app; [apply flat_codes_ok; exact H|apply okp_cons_other; [exact Hop|exact I]].
  Qed.

  Lemma okv_const_map S : forall vals acc, Forall (okv S) vals -> okv S (VMap acc) -> okv S (const_map vals acc).
  Proof.
    fix IH 1. intros vals acc Hv Ha. destruct vals as [|v [|k r]]; cbn [const_map]; try exact Ha.
    inversion Hv as [|? ? Hv0 Hr]; subst. inversion Hr as [|? ? Hk Hr']; subst.
    destruct k; try exact I. apply IH; [exact Hr'|]. apply okv_map. apply forall_insert; [apply okv_map; exact Ha|exact Hv0].
  Qed.

  Lemma c_lit_rd l n cp n' : c_lit fuel rec_expr l n = COk cp n' -> rd cp.
  Proof.
    destruct l; cbn [c_lit]; try (intros H; injection H as <- _; exact (conj I I)).
    intros H.
    match type of H with ?go segs [] [] O n = _ =>
      assert (G : forall segs0 acc ps k n0 cp0 n0', okp (inS ps) acc -> go segs0 acc ps k n0 = COk cp0 n0' -> rd cp0) end.
    { induction segs0 as [|sg r IH]; intros acc ps k n0 cp0 n0' Hacc H0.
      - injection H0 as <- _. unfold rd, bc_of'. cbn [cp_node cp_params into_bytecode].
        apply okp_app; [exact Hacc|exact I].
      - destruct sg as [s|s].
        + eapply IH; [|exact H0]. apply okp_app; [exact Hacc|]. cbn. exact (conj I I).
        + destruct (p_expr fuel (tz_init s)) as [e t| |] eqn:Hp; try discriminate H0.
          destruct (rec_expr e O) as [cpe ne| | | |] eqn:He; try discriminate H0.
          destruct (resolve (into_bytecode (cp_node cpe))) as [bc|] eqn:R; try discriminate H0.
          eapply IH; [|exact H0]. unfold union. apply okp_app; [exact (okp_inl _ _ _ Hacc)|].
          cbn [okp]. split; [|exact I].
          apply (okv_weaken (cp_params cpe)); [apply incl_appr, incl_refl|].
          exact (okp_resolve' _ _ _ (Hrec _ _ _ _ He) R). }
    eapply G; [|exact H]. exact I.
  Qed.

  Lemma c_primary_rd p n cp n' : c_primary fuel rec_expr p n = COk cp n' -> rd cp.
  Proof.
    destruct p; cbn [c_primary]; intros H.
    - injection H as <- _. unfold rd, bc_of'. cbn [cp_node cp_params into_bytecode]. apply okp_push1.
      left. left. reflexivity.
    - eapply Hrec; eauto.
    - cinv H. injection H as <- _. apply rd_from_children; [exact I| |eapply c_list_rd; eauto].
      intros S vs Hv. apply okv_list. exact Hv.
    - cinv H. injection H as <- _. apply rd_from_children; [exact I| |].
      + intros S vs Hv. apply okv_const_map; [exact Hv|exact I].
      + revert a n n0 Hc. induction inits as [|[r0 k v] rest IH]; intros a n n0 Hc.
        * injection Hc as <- _. constructor.
        * cinv Hc. cinv Hc. cinv Hc. injection Hc as <- _.
          constructor; [eapply Hrec; eauto|]. constructor; [eapply Hrec; eauto|]. eapply IH; eauto.
    - eapply c_lit_rd; eauto.
  Qed.

  Lemma access_ok S o n : okv S o -> okv S (access o n).
  Proof.
    intros Ho. unfold access. destruct (is_err o); [exact Ho|]. destruct o; try exact I.
    destruct (map_get m n) eqn:G; [eapply map_get_ok; eauto|exact I].
  Qed.

  Lemma c_mprime_rd cur m n cp n' : rd cur -> c_mprime fuel rec_expr cur m n = COk cp n' -> rd cp.
  Proof.
    intros Hcur. destruct m; cbn [c_mprime]; intros H.
    - unfold rd, bc_of' in *. destruct (cp_node cur) as [c|o] eqn:Ec.
      + injection H as <- _. cbn [cp_node cp_params into_bytecode] in *. apply okp_app; [exact Hcur|exact I].
      + cbn [into_bytecode] in Hcur. apply okp_push1 in Hcur.
        match type of H with (match ?fo with Some _ => _ | None => _ end) _ = _ => destruct fo as [v|] eqn:Ef end;
          injection H as <- _; cbn [cp_node cp_params into_bytecode].
        * apply okp_push1. destruct o; try discriminate Ef. pose proof (access_ok _ (VMap m) (utf8_encode name) Hcur) as Ha.
          destruct (access (VMap m) (utf8_encode name)); try discriminate Ef; injection Ef as <-; exact Ha.
        * apply okp_cons_push; [exact Hcur|]. cbn. exact I.
    - cinv H. eapply rd_check_for_const; [|exact H]. clear H.
      assert (G : okp (inS (snd a)) (fst a)).
      { revert a n n0 Hc. induction args as [|e rest IH]; intros a n n0 Hc.
        - injection Hc as <- _. exact I.
        - cinv Hc. cinv Hc. cinv Hc. injection Hc as <- _. cbn [fst snd]. unfold union.
          apply resolve_or_panic_ok in Hc1. destruct Hc1 as [R ->].
          apply okp_cons_push.
          + apply (okv_weaken (cp_params a0)); [apply incl_appl, incl_refl|]. exact (okp_resolve' _ _ _ (Hrec _ _ _ _ Hc0) R).
          + apply okp_inr. eapply IH; eauto. }
      unfold rd, bc_of'. cbn [cp_node cp_params into_bytecode]. unfold union.
      apply okp_app; [exact (okp_inl _ _ _ G)|].
      apply okp_app; [exact (okp_inr _ _ _ Hcur)|exact I].
    - cinv H. injection H as <- _. apply rd_compile2; [intros S; apply ok_index|exact I|exact Hcur|eapply Hrec; eauto].
  Qed.

  Lemma c_member_rd m n cp n' : c_member fuel rec_expr m n = COk cp n' -> rd cp.
  Proof.
    destruct m as [r p ms]. cbn [c_member]. intros H. cinv H. apply c_primary_rd in Hc.
    revert a n0 Hc H. induction ms as [|x ms IH]; intros cur n0 Hcur H.
    - injection H as <- _. exact Hcur.
    - cinv H. eapply IH; [|exact H]. eapply c_mprime_rd; eauto.
  Qed.

  Lemma c_unary_rd u n cp n' : c_unary fuel rec_expr u n = COk cp n' -> rd cp.
  Proof.
    destruct u; cbn [c_unary]; intros H.
    - eapply c_member_rd; eauto.
    - cinv H. injection H as <- _. apply rd_append_result; [eapply c_member_rd; eauto|]. apply okp_repeat. exact I.
    - cinv H. injection H as <- _. apply rd_append_result; [eapply c_member_rd; eauto|]. apply okp_repeat. exact I.
  Qed.

  Lemma c_mult_rd : forall e n cp n', c_mult fuel rec_expr e n = COk cp n' -> rd cp.
  Proof.
    induction e as [r l IH op u|r u]; intros n cp n' H; cbn [c_mult] in *.
    - cinv H. cinv H. injection H as <- _.
      destruct op; (apply rd_compile2; [intros S; first [apply ok_mul|apply ok_div|apply ok_rem]|exact I|eapply IH; eauto|eapply c_unary_rd; eauto]).
    - eapply c_unary_rd; eauto.
  Qed.

  Lemma c_addn_rd : forall e n cp n', c_addn fuel rec_expr e n = COk cp n' -> rd cp.
  Proof.
    induction e as [r l IH op u|r u]; intros n cp n' H; cbn [c_addn] in *.
    - cinv H. cinv H. injection H as <- _.
      destruct op; (apply rd_compile2; [intros S; first [apply ok_add|apply ok_sub]|exact I|eapply IH; eauto|eapply c_mult_rd; eauto]).
    - eapply c_mult_rd; eauto.
  Qed.

  Lemma c_rel_rd : forall e n cp n', c_rel fuel rec_expr e n = COk cp n' -> rd cp.
  Proof.
    induction e as [r l IH op u|r u]; intros n cp n' H; cbn [c_rel] in *.
    - cinv H. cinv H. injection H as <- _.
      destruct op; (apply rd_compile2; [intros S; first [apply ok_cmp|apply ok_eq|apply ok_neq|apply ok_in]|exact I|eapply IH; eauto|eapply c_addn_rd; eauto]).
    - eapply c_addn_rd; eauto.
  Qed.

  Lemma rd_link (cl cr : cprog) (mid tail : pcode) :
    rd cl -> rd cr -> okp (fun _ => False) mid -> okp (fun _ => False) tail ->
    rd (mkCP (NBytecode (into_bytecode (cp_node cl) ++ mid ++ into_bytecode (cp_node cr) ++ tail)) (union (cp_params cl) (cp_params cr))).
  Proof.
    intros Hl Hr Hm Ht. unfold rd, bc_of', union in *. cbn [cp_node cp_params into_bytecode].
    apply okp_app; [exact (okp_inl _ _ _ Hl)|].
    apply okp_app; [eapply okp_mono; [|exact Hm]; intros ? []|].
    apply okp_app; [exact (okp_inr _ _ _ Hr)|eapply okp_mono; [|exact Ht]; intros ? []].
  Qed.

  Lemma rd_append_if c x : rd c -> okp (fun _ => False) x -> rd (append_if_bytecode c x).
  Proof.
    intros Hc Hx. unfold rd, bc_of', append_if_bytecode in *. destruct (cp_node c) as [b|v] eqn:E; [|rewrite E; exact Hc].
    cbn [cp_node cp_params into_bytecode] in *. apply okp_app; [exact Hc|eapply okp_mono; [|exact Hx]; intros ? []].
  Qed.

  Lemma c_cand_chain_rd : forall e lbl n cp n', c_cand_chain fuel rec_expr e lbl n = COk cp n' -> rd cp.
  Proof.
    induction e as [r l IH u|r u]; intros lbl n cp n' H; cbn [c_cand_chain] in *.
    - cinv H. cinv H. injection H as <- _.
      apply (rd_link a a0 [PBc ITest; PBc IDup; PJmpCond false lbl] [PBc IAnd]); [eapply IH; eauto|eapply c_rel_rd; eauto|exact I|exact I].
    - eapply c_rel_rd; eauto.
  Qed.
  Lemma c_cand_rd e n cp n' : c_cand fuel rec_expr e n = COk cp n' -> rd cp.
  Proof.
    unfold c_cand. intros H. cinv H. cinv H. injection H as <- _.
    apply rd_append_if; [eapply c_cand_chain_rd; eauto|exact I].
  Qed.
  Lemma c_cor_chain_rd : forall e lbl n cp n', c_cor_chain fuel rec_expr e lbl n = COk cp n' -> rd cp.
  Proof.
    induction e as [r l IH u|r u]; intros lbl n cp n' H; cbn [c_cor_chain] in *.
    - cinv H. cinv H. injection H as <- _.
      apply (rd_link a a0 [PBc ITest; PBc IDup; PJmpCond true lbl] [PBc IOr]); [eapply IH; eauto|eapply c_cand_rd; eauto|exact I|exact I].
    - eapply c_cand_rd; eauto.
  Qed.
  Lemma c_cor_rd e n cp n' : c_cor fuel rec_expr e n = COk cp n' -> rd cp.
  Proof.
    unfold c_cor. intros H. cinv H. cinv H. injection H as <- _.
    apply rd_append_if; [eapply c_cor_chain_rd; eauto|exact I].
  Qed.

  Lemma c_pattern_rd p n r n' : c_pattern fuel rec_expr p n = COk r n' -> okp (inS (snd r)) (fst r).
  Proof.
    destruct p; cbn [c_pattern]; intros H.
    - cinv H. injection H as <- _. cbn [fst snd]. apply okp_app; [eapply c_cor_rd; eauto|destruct op; exact I].
    - destruct (is_type_name (utf8_encode name)) eqn:Ht; [|discriminate H].
      injection H as <- _. cbn [fst snd]. cbn [okp]. split; [right; exact Ht|exact I].
    - injection H as <- _. cbn [fst snd]. cbn. exact (conj I I).
  Qed.

  (** the cases of a match: every pattern and every arm reads only names collected for the cases *)
  Lemma c_cases_rd : forall cases n pr n',
    (fix go (l : list mcase) : C (list (pcode * pcode) * list bytes) :=
       match l with
       | [] => cret ([], [])
       | MCase _ p arm :: r =>
           let+ cp := c_pattern fuel rec_expr p in
           let+ ca := rec_expr arm in
           let+ rest := go r in
           cret ((fst cp, PBc IPop :: into_bytecode (cp_node ca)) :: fst rest, union (snd cp) (union (cp_params ca) (snd rest)))
       end) cases n = COk pr n' ->
    Forall (fun pe => okp (inS (snd pr)) (fst pe) /\ okp (inS (snd pr)) (snd pe)) (fst pr).
  Proof.
    induction cases as [|[rc p arm] l IH]; intros n pr n' H.
    - injection H as <- _. constructor.
    - cinv H. cinv H. cinv H. injection H as <- _. cbn [fst snd]. unfold union. constructor.
      + split; [apply okp_inl; eapply c_pattern_rd; eauto|].
        apply okp_cons_other; [exact I|]. apply okp_inr, okp_inl. exact (Hrec _ _ _ _ Hc0).
      + eapply Forall_impl; [|eapply IH; eauto]. intros [pb eb] [A B]. split; apply okp_inr, okp_inr; assumption.
  Qed.

  (** the second pass, which lays the cases out between their labels, adds nothing that reads a name *)
  Lemma match_body_rd S AM : forall parts q body q',
    (fix go (l : list (pcode * pcode)) : C pcode :=
       match l with
       | [] => cret []
       | (pb, eb) :: r =>
           let+ after_case := new_label in
           let+ rest := go r in
           cret ([PBc IDup] ++ pb ++ [PJmpCond false after_case] ++ eb ++ [PJmp AM; PLabel after_case] ++ rest)
       end) parts q = COk body q' ->
    Forall (fun pe => okp S (fst pe) /\ okp S (snd pe)) parts -> okp S body.
  Proof.
    induction parts as [|[pb eb] l IH]; intros q body q' H HS.
    - injection H as <- _. exact I.
    - cinv H. cinv H. injection H as <- _. inversion HS as [|? ? [A1 A2] Hr]; subst.
      apply okp_cons_other; [exact I|]. apply okp_app; [exact A1|]. apply okp_cons_other; [exact I|]. apply okp_app; [exact A2|].
      do 2 (apply okp_cons_other; [exact I|]). eapply IH; eauto.
  Qed.

  Lemma c_expr_body_rd e n cp n' : c_expr_body fuel rec_expr e n = COk cp n' -> rd cp.
  Proof.
    destruct e; cbn [c_expr_body]; intros H.
    - cinv H. cinv H. cinv H.
      pose proof (okp_inl _ (cp_params a0 ++ cp_params a1) _ (c_cor_rd _ _ _ _ Hc)) as W1.
      pose proof (okp_inr (cp_params a) _ _ (okp_inl _ (cp_params a1) _ (c_cor_rd _ _ _ _ Hc0))) as W2.
      pose proof (okp_inr (cp_params a) _ _ (okp_inr (cp_params a0) _ _ (Hrec _ _ _ _ Hc1))) as W3.
      unfold rd, bc_of', union in *. destruct (cp_node a) as [cb|v] eqn:Ea.
      + cinv H. cinv H. injection H as <- _. cbn [cp_node cp_params into_bytecode] in *.
        apply okp_app; [exact W1|]. do 4 (apply okp_cons_other; [exact I|]). apply okp_app; [exact W2|].
        do 6 (apply okp_cons_other; [exact I|]). apply okp_app; [exact W3|exact I].
      + destruct (is_err v); [|destruct (is_truthy v)]; injection H as <- _; cbn [cp_node cp_params into_bytecode] in *; assumption.
    - cinv H. cinv H. cinv H. cinv H. injection H as <- _.
      unfold rd, bc_of', union. cbn [cp_node cp_params into_bytecode].
      apply okp_app; [exact (okp_inl _ _ _ (Hrec _ _ _ _ Hc))|].
      apply okp_app; [|exact (conj I I)].
      apply (match_body_rd _ _ _ _ _ _ Hc2). eapply Forall_impl; [|exact (c_cases_rd _ _ _ _ Hc0)].
      intros [pb eb] [A1 A2]. split; apply okp_inr; assumption.
    - eapply c_cor_rd; eauto.
  Qed.
End Level.

(** Every identifier a compiled expression can resolve is one of its parameters or the name of a built-in type. *)
Theorem c_expr_rd : forall fuel e n cp n', c_expr fuel e n = COk cp n' -> rd cp.
Proof.
  induction fuel as [|f IH]; intros e n cp n' H; [discriminate H|]. cbn [c_expr] in H.
  eapply (c_expr_body_rd f (c_expr f)); eauto.
Qed.

Theorem program_reads_only_its_params fuel src p k : compile_source fuel src = COk p k ->
  okc (inS (pr_params p)) (pr_code p).
Proof.
  intros H. unfold compile_source in H.
  destruct (parse_program fuel src) as [e t| |]; try discriminate H.
  destruct (c_expr fuel e O) as [cp n1| | | |] eqn:Hc; try discriminate H.
  destruct (resolve (into_bytecode (cp_node cp))) as [bc|] eqn:R; try discriminate H.
  injection H as <- _. cbn [pr_params pr_code].
  eapply okp_resolve'; [|exact R]. eapply okp_mono; [|exact (c_expr_rd _ _ _ _ _ Hc)].
  intros n [A|A]; [left; apply sort_params_in; exact A|right; exact A].
Qed.

Lemma pure_ok S : forall v, pure v = true -> okv S v.
Proof.
  apply (value_ind_nested (fun v => pure v = true -> okv S v)).
  - intros l H Hp. apply okv_list. induction H as [|x r Hx _ IH]; [constructor|]. cbn in Hp. apply andb_prop in Hp. destruct Hp as [A B].
    constructor; [apply Hx; exact A|apply IH; exact B].
  - intros m H Hp. apply okv_map. induction H as [|[k x] r Hx _ IH]; [constructor|]. cbn in Hp. apply andb_prop in Hp. destruct Hp as [A B].
    constructor; [apply Hx; exact A|apply IH; exact B].
  - intros v Hv Hp. destruct v; try contradiction; try exact I; discriminate Hp.
Qed.

(** run-time environments of a single program: bound, no other stored program *)
Definition env_of (ps : list (bytes * value)) (ufs : list (bytes * ufun)) (now : Z) : env :=
  mkEnv true ps [] ufs true (Some now).

Definition pure_binds (ps : list (bytes * value)) : Prop := smap ps /\ forall n v, map_get ps n = Some v -> pure v = true.
Definition pure_ufuns (ufs : list (bytes * ufun)) : Prop := forall n v, assoc n ufs = Some (UFConst v) -> pure v = true.

Lemma agree_run_envs (S : bytes -> Prop) ps ps' progs ufs now : pure_binds ps -> pure_binds ps' -> pure_ufuns ufs ->
  (forall n c, assoc n progs = Some c -> okc S c) ->
  (forall n, S n -> map_get ps n = map_get ps' n) ->
  agree S (mkEnv true ps progs ufs true (Some now)) (mkEnv true ps' progs ufs true (Some now)).
Proof.
  intros [S1 P1] [S2 P2] Pu Hp Hag. constructor; cbn [e_bound e_params e_progs e_ufuncs e_runtime e_now]; auto.
  - intros n v _ Hg. apply pure_ok. eapply P1; eauto.
  - intros n c _ Hc. eapply Hp; eauto.
  - intros n v Hu. apply pure_ok. eapply Pu; eauto.
Qed.

(** The reported parameters are enough: two sets of bindings that agree on every reported name (and on
    variables named like a built-in type, which no program can read anyway once the type is known) give
    the same outcome - value or error, and call log - for every fuel, whatever else they bind. *)
Theorem reported_params_decide_the_result fuel src p k : compile_source fuel src = COk p k ->
  forall ps ps' ufs now, pure_binds ps -> pure_binds ps' -> pure_ufuns ufs ->
  (forall n, In n (pr_params p) \/ is_type_name n = true -> map_get ps n = map_get ps' n) ->
  forall fuelr lg, run fuelr (env_of ps ufs now) (pr_code p) true O lg = run fuelr (env_of ps' ufs now) (pr_code p) true O lg.
Proof.
  intros Hc ps ps' ufs now B1 B2 Bu Hag fuelr lg.
  apply (vm_same_outcome (inS (pr_params p))).
  - apply (agree_run_envs _ ps ps' [] ufs now B1 B2 Bu); [intros n c H; discriminate H|exact Hag].
  - eapply program_reads_only_its_params; eauto.
Qed.

(** the premises are met: a program with a variable, a field name, a callee and a type pattern *)
Example relevance_somewhere :
  match compile_source 40 #"match x.f { case int: size(y), case _: z }" with
  | COk p _ => pr_params p
  | _ => []
  end = [#"size"; #"x"; #"y"; #"z"].
Proof. vm_compute. reflexivity. Qed.
