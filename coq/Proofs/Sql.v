(* Proofs/Sql.v — C20: a CEL string literal becomes exactly one SQL string
   literal with the same content; call arguments are emitted in source order;
   untranslatable constructs are reported, translation is total. *)
From Coq Require Import ZArith List Bool Lia.
From Rscel Require Import Base.Prims Base.F64 Base.Text Model.Value Model.Lexer Model.Ast Model.Sql.
Import ListNotations.
Import Coq.Strings.String.StringSyntax.
Open Scope Z_scope.

(** How SQL reads a string literal (standard-conforming strings): after the
    opening quote, a doubled quote is one quote character, a single quote ends
    the literal; a backslash, a dash, a semicolon, a newline are ordinary. *)
Fixpoint sql_read_body (fuel : nat) (s : chars) (acc : chars) : option (chars * chars) :=
  match fuel with
  | O => None
  | S f =>
      match s with
      | [] => None                                          (* unterminated *)
      | 39 :: 39 :: r => sql_read_body f r (39 :: acc)
      | 39 :: r => Some (rev acc, r)
      | c :: r => sql_read_body f r (c :: acc)
      end
  end.

Definition sql_read_string (s : chars) : option (chars * chars) :=
  match s with
  | 39 :: r => sql_read_body (S (length r)) r []
  | _ => None
  end.

Definition not_quote_head (rest : chars) : Prop := match rest with 39 :: _ => False | _ => True end.

(** One step of the reader.  The model matches on the literal 39, that is on the bits of a
    positive: six of them tell 39 from every other number. *)
Lemma sql_read_body_cons f c r acc :
  sql_read_body (S f) (c :: r) acc =
  if c =? 39 then
    match r with
    | c' :: r' => if c' =? 39 then sql_read_body f r' (39 :: acc) else Some (rev acc, r)
    | [] => Some (rev acc, r)
    end
  else sql_read_body f r (c :: acc).
Proof.
  assert (D : forall x : Z, x <> 39 -> forall a b : option (chars * chars), match x with 39 => a | _ => b end = b).
  { intros x N a b. destruct x as [|p|p]; try reflexivity. do 6 (try (destruct p as [p|p|]; try reflexivity)). congruence. }
  destruct (Z.eqb_spec c 39) as [->|N]; [|exact (D c N _ _)].
  destruct r as [|c' r']; [reflexivity|]. destruct (Z.eqb_spec c' 39) as [->|N']; [reflexivity|exact (D c' N' _ _)].
Qed.

Definition esc (s : chars) : chars := flat_map (fun c => if c =? 39 then [39; 39] else [c]) s.

Lemma read_body_esc : forall s rest acc fuel, not_quote_head rest -> (length (esc s) < fuel)%nat ->
  sql_read_body fuel (esc s ++ 39 :: rest) acc = Some (rev acc ++ s, rest).
Proof.
  induction s as [|c r IH]; intros rest acc fuel Hr Hf; (destruct fuel as [|f]; [cbn in Hf; lia|]).
  - cbn [esc flat_map app]. rewrite sql_read_body_cons, Z.eqb_refl, app_nil_r.
    destruct rest as [|c' r']; [reflexivity|]. destruct (Z.eqb_spec c' 39) as [->|_]; [destruct Hr|reflexivity].
  - unfold esc in *. cbn [flat_map] in *.
    destruct (Z.eqb_spec c 39) as [->|N]; cbn [app length] in *; rewrite sql_read_body_cons.
    + rewrite Z.eqb_refl. cbn iota. rewrite IH by (try assumption; lia).
      cbn [rev]. rewrite <- app_assoc. reflexivity.
    + rewrite (proj2 (Z.eqb_neq c 39) N), IH by (try assumption; lia). cbn [rev]. rewrite <- app_assoc. reflexivity.
Qed.

(** The emitted literal is read back by SQL as exactly the CEL string's
    content, and reading stops exactly at its closing quote: whatever the
    content (quotes, backslashes, dashes, semicolons, newlines), it cannot end
    its own quoting.  (What follows a literal in the emitted text never starts
    with a quote: it is a closing parenthesis, a comma, a space or the end.) *)
Theorem string_literal_is_one_sql_literal s rest : not_quote_head rest ->
  sql_read_string (sql_quote s ++ rest) = Some (s, rest).
Proof.
  intros Hr. unfold sql_quote, sql_read_string. cbn [app]. rewrite <- app_assoc. cbn [app].
  fold (esc s). rewrite read_body_esc; [reflexivity|exact Hr|].
  rewrite app_length. cbn [length]. lia.
Qed.

Corollary literal_translation s r : sql_primary (PrLit r (LStr s)) = SqlOk (sql_quote s).
Proof. reflexivity. Qed.

(** the emitted literal is the escaped content between two quotes, as far as its length tells *)
Theorem quoted_length s : (length (sql_quote s) = 2 + length (esc s))%nat.
Proof. unfold sql_quote. fold (esc s). cbn [length]. rewrite app_length. cbn. lia. Qed.

(** untranslatable constructs are reported *)
Theorem match_is_unsupported r c cases : sql_expr (EMatch r c cases) = SqlUnsupported.
Proof. reflexivity. Qed.
Theorem bytes_fstring_unsupported r b segs :
  sql_primary (PrLit r (LBytes b)) = SqlUnsupported /\ sql_primary (PrLit r (LFStr segs)) = SqlUnsupported.
Proof. split; reflexivity. Qed.

(** operators: same operator, operands in source order, fully parenthesised *)
Theorem binary_structure :
  (forall r l op rhs ls rs, sql_addn l = SqlOk ls -> sql_mult rhs = SqlOk rs ->
     sql_addn (AddBin r l op rhs) = SqlOk ([40] ++ ls ++ [41; 32] ++ addop_sql op ++ [32; 40] ++ rs ++ [41])) /\
  (forall r l op rhs ls rs, sql_mult l = SqlOk ls -> sql_unary rhs = SqlOk rs ->
     sql_mult (MulBin r l op rhs) = SqlOk ([40] ++ ls ++ [41; 32] ++ mulop_sql op ++ [32; 40] ++ rs ++ [41])) /\
  (forall r l op rhs ls rs, sql_rel l = SqlOk ls -> sql_addn rhs = SqlOk rs ->
     sql_rel (RelBin r l op rhs) = SqlOk ([40] ++ ls ++ [41; 32] ++ relop_sql op ++ [32; 40] ++ rs ++ [41])) /\
  (forall r l rhs ls rs, sql_cand l = SqlOk ls -> sql_rel rhs = SqlOk rs ->
     sql_cand (AndBin r l rhs) = SqlOk ([40] ++ ls ++ [41; 32] ++ #"AND" ++ [32; 40] ++ rs ++ [41])) /\
  (forall r l rhs ls rs, sql_cor l = SqlOk ls -> sql_cand rhs = SqlOk rs ->
     sql_cor (OrBin r l rhs) = SqlOk ([40] ++ ls ++ [41; 32] ++ #"OR" ++ [32; 40] ++ rs ++ [41])).
Proof.
  repeat split; intros; cbn [sql_addn sql_mult sql_rel sql_cand sql_cor];
    repeat match goal with H : _ = SqlOk _ |- _ => rewrite H; clear H end; reflexivity.
Qed.

(** a call standing alone: callee, then the arguments in source order (the tree stores them last-first) *)
Lemma smap_ok {A} (f : A -> sqlres) l ts : Forall2 (fun x t => f x = SqlOk t) l ts -> smap f l = inl ts.
Proof. induction 1 as [|x t l ts H _ IH]; cbn [smap]; [reflexivity|]. rewrite H, IH. reflexivity. Qed.

Theorem call_arguments_in_source_order r p r' stored ts ps :
  (forall rr name, p = PrIdent rr name -> cast_type name = None) ->
  sql_primary p = SqlOk ps ->
  Forall2 (fun x t => sql_expr x = SqlOk t) stored ts ->
  sql_member (Member r p [MPCall r' stored]) = SqlOk (ps ++ [40] ++ join_sql #", " (rev ts) ++ [41]).
Proof.
  intros Hc Hp Ha. cbn [sql_member]. unfold with_all. rewrite (smap_ok sql_expr stored ts Ha).
  destruct p as [rr name|rr e|rr es|rr inits|rr l]; try (rewrite Hp; reflexivity).
  rewrite (Hc rr name eq_refl). rewrite Hp. reflexivity.
Qed.

(** a type constructor applied to one argument is a cast of that argument *)
Theorem cast_of_one_argument r rr name ty r' a t :
  cast_type name = Some ty -> sql_expr a = SqlOk t ->
  sql_member (Member r (PrIdent rr name) [MPCall r' [a]]) =
  SqlOk ((if cast_needs_parens a then [40] ++ t ++ [41] else t) ++ #"::" ++ ty).
Proof.
  intros Hc Ha. cbn [sql_member]. unfold with_all. cbn [smap]. rewrite Ha. cbn [rev app]. rewrite Hc. reflexivity.
Qed.
