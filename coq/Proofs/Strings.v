(* Proofs/Strings.v — C15: substring / prefix / suffix tests are what they say;
   the pieces of split rejoin with the delimiter to the original and contain no
   occurrence a left scan would have split; rsplit is the mirror image; replace
   and remove are defined by split; trimming strips whole copies of the pattern;
   splitAt cuts at the offset; integer pow is exact. *)
From Coq Require Import ZArith List Bool Lia.
From Rscel Require Import Base.Prims Base.F64 Base.Text Model.Strings Model.Value Model.Ops Model.Dispatch Model.Funcs.
Import ListNotations.
Import Coq.Strings.String.StringSyntax.
Open Scope Z_scope.

Lemma is_prefix_spec p : forall s, is_prefix p s = true <-> exists t, s = p ++ t.
Proof.
  induction p as [|x p IH]; intros s; cbn [is_prefix].
  - split; [intros _; exists s; reflexivity|reflexivity].
  - destruct s as [|y s]; [split; [discriminate|intros [t H]; discriminate]|].
    rewrite andb_true_iff, Z.eqb_eq, IH. split.
    + intros [-> [t ->]]. exists t. reflexivity.
    + intros [t H]. cbn in H. inversion H; subst. split; [reflexivity|exists t; reflexivity].
Qed.

Lemma is_prefix_skipn p s : is_prefix p s = true -> s = p ++ skipn (length p) s.
Proof. intros H. apply is_prefix_spec in H. destruct H as [t ->]. rewrite skipn_app, skipn_all, Nat.sub_diag. reflexivity. Qed.

Theorem contains_spec n : forall h, contains n h = true <-> exists u v, h = u ++ n ++ v.
Proof.
  induction h as [|c h IH]; cbn [contains]; rewrite orb_true_iff, is_prefix_spec.
  - split.
    + intros [[t H]|H]; [exists [], t; exact H|discriminate].
    + intros (u & v & H). left. destruct u; [exists v; exact H|discriminate].
  - rewrite IH. split.
    + intros [[t H]|(u & v & H)]; [exists [], t; exact H|exists (c :: u), v; rewrite H; reflexivity].
    + intros (u & v & H). destruct u as [|x u]; [left; exists v; exact H|].
      right. cbn in H. inversion H; subst. exists u, v. reflexivity.
Qed.

Lemma is_prefix_app p s t : is_prefix p s = true -> is_prefix p (s ++ t) = true.
Proof. rewrite !is_prefix_spec. intros [r ->]. exists (r ++ t). rewrite app_assoc. reflexivity. Qed.

Lemma join_cons_ne sep x l : l <> [] -> join_bytes sep (x :: l) = x ++ sep ++ join_bytes sep l.
Proof. destruct l; [congruence|reflexivity]. Qed.

Lemma snoc_ne {A} (xs : list A) p : xs ++ [p] <> [].
Proof. destruct xs; discriminate. Qed.

Lemma join_last sep xs p t : join_bytes sep (xs ++ [p]) ++ t = join_bytes sep (xs ++ [p ++ t]).
Proof.
  induction xs as [|x xs IH]; [reflexivity|]. cbn [app].
  rewrite !join_cons_ne by apply snoc_ne. rewrite <- !app_assoc, IH. reflexivity.
Qed.

Lemma join_snoc sep xs p q : join_bytes sep (xs ++ [p; q]) = join_bytes sep (xs ++ [p]) ++ sep ++ q.
Proof.
  induction xs as [|x xs IH]; [reflexivity|]. cbn [app].
  rewrite !join_cons_ne by (try apply snoc_ne; destruct xs; discriminate). rewrite IH, <- !app_assoc. reflexivity.
Qed.

Lemma split_scan_rejoin needle : needle <> [] -> forall fuel s cur acc, (length s < fuel)%nat ->
  join_bytes needle (split_scan fuel needle s cur acc) = join_bytes needle (rev acc ++ [rev cur]) ++ s.
Proof.
  intros Hn. induction fuel as [|f IH]; intros s cur acc Hf; [lia|]. cbn [split_scan].
  destruct s as [|c r].
  - cbn [rev]. rewrite app_nil_r. reflexivity.
  - destruct (is_prefix needle (c :: r)) eqn:P.
    + pose proof (is_prefix_skipn _ _ P) as E.
      assert (Hl : (length (skipn (length needle) (c :: r)) < f)%nat).
      { rewrite skipn_length. destruct needle; [congruence|]. cbn [length] in *. lia. }
      rewrite IH by exact Hl. cbn [rev]. rewrite <- app_assoc. cbn [app].
      rewrite join_snoc, app_nil_r, <- app_assoc, <- E. reflexivity.
    + rewrite IH by (cbn [length] in Hf; lia). cbn [rev]. rewrite <- join_last. rewrite <- app_assoc. reflexivity.
Qed.

Lemma split_str_nonempty s needle : needle <> [] -> split_str s needle = Some (split_scan (S (length s)) needle s [] []).
Proof. destruct needle; [congruence|reflexivity]. Qed.

(** the pieces, joined with the delimiter, give back the original *)
Theorem split_rejoin s needle l : split_str s needle = Some l -> needle <> [] -> join_bytes needle l = s.
Proof.
  intros H Hn. rewrite (split_str_nonempty s needle Hn) in H.
  assert (l = split_scan (S (length s)) needle s [] []) as -> by congruence.
  rewrite (split_scan_rejoin needle Hn (S (length s)) s [] []) by lia. reflexivity.
Qed.

(** no piece contains an occurrence that the left-to-right scan would have split *)
Definition no_match_inside (needle cur s : bytes) : Prop :=
  forall u v, rev cur = u ++ v -> v <> [] -> is_prefix needle (v ++ s) = false.

Lemma clean_piece needle cur s : needle <> [] -> no_match_inside needle cur s -> contains needle (rev cur) = false.
Proof.
  intros Hn Inv. destruct (contains needle (rev cur)) eqn:C; [|reflexivity]. exfalso.
  apply contains_spec in C. destruct C as (u & v & E).
  assert (Hv : needle ++ v <> []) by (destruct needle; [congruence|discriminate]).
  pose proof (Inv u (needle ++ v) E Hv) as F.
  assert (T : is_prefix needle ((needle ++ v) ++ s) = true) by (apply is_prefix_spec; exists (v ++ s); rewrite app_assoc; reflexivity).
  congruence.
Qed.

Lemma split_scan_clean needle : needle <> [] -> forall fuel s cur acc,
  Forall (fun p => contains needle p = false) acc -> no_match_inside needle cur s ->
  Forall (fun p => contains needle p = false) (split_scan fuel needle s cur acc).
Proof.
  intros Hn. induction fuel as [|f IH]; intros s cur acc Ha Inv; cbn [split_scan].
  - apply Forall_rev. constructor; [eapply clean_piece; eauto|exact Ha].
  - destruct s as [|c r].
    + apply Forall_rev. constructor; [eapply clean_piece; eauto|exact Ha].
    + destruct (is_prefix needle (c :: r)) eqn:P.
      * apply IH; [constructor; [eapply clean_piece; eauto|exact Ha]|].
        intros u v E Hv. cbn in E. destruct u; [cbn in E; subst v; congruence|discriminate].
      * apply IH; [exact Ha|]. intros u v E Hv. cbn [rev] in E.
        destruct (exists_last Hv) as (v0 & x & ->).
        rewrite app_assoc in E. apply app_inj_tail in E. destruct E as [E ->].
        rewrite <- app_assoc. cbn [app]. destruct v0 as [|y v0]; [exact P|].
        apply (Inv u (y :: v0) E). discriminate.
Qed.

Theorem split_pieces_clean s needle l : split_str s needle = Some l -> needle <> [] ->
  Forall (fun p => contains needle p = false) l.
Proof.
  intros H Hn. rewrite (split_str_nonempty s needle Hn) in H.
  assert (l = split_scan (S (length s)) needle s [] []) as -> by congruence.
  apply split_scan_clean; [exact Hn|constructor|]. intros u v E Hv. cbn in E. destruct u; [cbn in E; subst; congruence|discriminate].
Qed.

Lemma rev_join sep : forall l, rev (join_bytes sep l) = join_bytes (rev sep) (rev (map (@rev Z) l)).
Proof.
  induction l as [|x l IH]; [reflexivity|]. destruct l as [|y l]; [cbn; reflexivity|].
  rewrite join_cons_ne by discriminate. rewrite !rev_app_distr, IH. cbn [map rev].
  set (m := rev (map (@rev Z) l)).
  replace ((m ++ [rev y]) ++ [rev x]) with (m ++ [rev y; rev x]) by (rewrite <- app_assoc; reflexivity).
  rewrite join_snoc, <- app_assoc. reflexivity.
Qed.

Lemma rev_nonempty (l : bytes) : l <> [] -> rev l <> [].
Proof. intros H. destruct l; [congruence|apply snoc_ne]. Qed.

Lemma rsplit_str_nonempty s needle : needle <> [] ->
  rsplit_str s needle = Some (map (@rev Z) (split_scan (S (length s)) (rev needle) (rev s) [] [])).
Proof. destruct needle; [congruence|reflexivity]. Qed.

(** rsplit is split seen in a mirror *)
Theorem rsplit_is_mirrored_split s needle : needle <> [] ->
  rsplit_str s needle = option_map (map (@rev Z)) (split_str (rev s) (rev needle)).
Proof.
  intros Hn. rewrite (rsplit_str_nonempty s needle Hn), (split_str_nonempty (rev s) (rev needle) (rev_nonempty needle Hn)).
  cbn [option_map]. rewrite rev_length. reflexivity.
Qed.

(** so its pieces, taken back into left-to-right order and joined, give the original *)
Theorem rsplit_rejoin s needle l : rsplit_str s needle = Some l -> needle <> [] -> join_bytes needle (rev l) = s.
Proof.
  intros H Hn. rewrite (rsplit_is_mirrored_split s needle Hn) in H.
  destruct (split_str (rev s) (rev needle)) as [ps|] eqn:E; [|discriminate H]. injection H as <-.
  apply split_rejoin in E; [|apply rev_nonempty; exact Hn].
  apply (f_equal (@rev Z)) in E. rewrite rev_involutive, rev_join, rev_involutive in E. exact E.
Qed.

Theorem replace_is_join_of_split s from to : replace_str s from to = option_map (join_bytes to) (split_str s from).
Proof. reflexivity. Qed.

Theorem replace_with_itself s from r : from <> [] -> replace_str s from from = Some r -> r = s.
Proof.
  intros Hn H. unfold replace_str in H. destruct (split_str s from) as [l|] eqn:E; [|discriminate]. inversion H; subst r.
  eapply split_rejoin; eauto.
Qed.

Theorem remove_is_replace_by_nothing s pat : pat <> [] -> remove_str s pat = replace_str s pat [].
Proof. intros H. destruct pat; [congruence|reflexivity]. Qed.

Theorem remove_nothing s : remove_str s [] = Some s.
Proof. reflexivity. Qed.

Fixpoint copies (k : nat) (p : bytes) : bytes := match k with O => [] | S k' => p ++ copies k' p end.

Lemma trim_start_go_spec p : p <> [] -> forall fuel s, (length s <= fuel)%nat ->
  exists k, s = copies k p ++ trim_start_go fuel p s /\ is_prefix p (trim_start_go fuel p s) = false.
Proof.
  intros Hp. induction fuel as [|f IH]; intros s Hf.
  - destruct s; [|cbn in Hf; lia]. exists O. split; [reflexivity|]. cbn. destruct p; [congruence|reflexivity].
  - cbn [trim_start_go]. destruct (is_prefix p s) eqn:P.
    + pose proof (is_prefix_skipn _ _ P) as E.
      assert (Hl : (length (skipn (length p) s) <= f)%nat).
      { rewrite skipn_length. destruct p; [congruence|]. cbn [length] in *.
        assert (length s <> 0)%nat by (destruct s; [discriminate P|discriminate]). lia. }
      destruct (IH _ Hl) as (k & Ek & Nk). exists (S k). split; [|exact Nk].
      cbn [copies]. rewrite <- app_assoc, <- Ek. exact E.
    + exists O. split; [reflexivity|exact P].
Qed.

(** trimStartMatches strips whole copies of the pattern and what remains does not start with it *)
Theorem trim_start_matches_spec s p : p <> [] ->
  exists k, s = copies k p ++ trim_start_matches s p /\ is_prefix p (trim_start_matches s p) = false.
Proof. intros Hp. unfold trim_start_matches. destruct p; [congruence|]. apply trim_start_go_spec; [discriminate|lia]. Qed.

Theorem trim_empty_pattern s : trim_start_matches s [] = s /\ trim_end_matches s [] = s.
Proof. split; reflexivity. Qed.

Lemma rev_copies k p : rev (copies k p) = copies k (rev p).
Proof.
  induction k as [|k IH]; [reflexivity|]. cbn [copies]. rewrite rev_app_distr, IH.
  clear. induction k as [|k IH]; [cbn; rewrite app_nil_r; reflexivity|]. cbn [copies]. rewrite <- app_assoc, IH. reflexivity.
Qed.

Theorem trim_end_matches_spec s p : p <> [] -> exists k, s = trim_end_matches s p ++ copies k p.
Proof.
  intros Hp. unfold trim_end_matches. destruct p as [|p0 pr]; [congruence|].
  destruct (trim_start_go_spec (rev (p0 :: pr)) (rev_nonempty _ Hp) (length s) (rev s) ltac:(rewrite rev_length; lia)) as (k & Ek & _).
  exists k. apply (f_equal (@rev Z)) in Ek. rewrite rev_involutive, rev_app_distr, rev_copies, rev_involutive in Ek. exact Ek.
Qed.

Theorem split_at_spec s i l r : split_at_str s i = Some (l, r) ->
  l ++ r = s /\ Z.of_nat (length l) = i /\ 0 <= i <= Z.of_nat (length s).
Proof.
  unfold split_at_str. destruct (i <? 0) eqn:N; [discriminate|]. apply Z.ltb_ge in N.
  destruct (Nat.leb (Z.to_nat i) (length s) && is_boundary s (Z.to_nat i)) eqn:B; [|discriminate].
  apply andb_true_iff in B. destruct B as [B _]. apply Nat.leb_le in B. intros H. inversion H; subst.
  split; [apply firstn_skipn|]. rewrite firstn_length. lia.
Qed.

Theorem split_at_out_of_range s i : i < 0 \/ Z.of_nat (length s) < i -> split_at_str s i = None.
Proof.
  intros [H|H]; unfold split_at_str.
  - assert (E : (i <? 0) = true) by (apply Z.ltb_lt; lia). rewrite E. reflexivity.
  - destruct (i <? 0); [reflexivity|]. assert (E : Nat.leb (Z.to_nat i) (length s) = false) by (apply Nat.leb_gt; lia).
    rewrite E. reflexivity.
Qed.

Lemma zpow_checked_exact inr b : forall fuel e acc r, zpow_checked fuel inr b e acc = Some r -> 0 <= e -> r = acc * b ^ e.
Proof.
  induction fuel as [|f IH]; intros e acc r H He; [discriminate|]. cbn [zpow_checked] in H.
  destruct (e <=? 0) eqn:E0.
  - apply Z.leb_le in E0. assert (e = 0) by lia. subst. inversion H. lia.
  - apply Z.leb_gt in E0. destruct (inr (acc * b)); [|discriminate].
    apply IH in H; [|lia]. rewrite H. replace e with (Z.succ (e - 1)) at 2 by lia. rewrite Z.pow_succ_r by lia. lia.
Qed.

(** pow on integers is the exact power whenever it returns a value *)
Theorem int_pow_exact inr b e r : int_pow inr b e = Some r -> r = b ^ e /\ 0 <= e.
Proof.
  unfold int_pow. destruct ((e <? 0) || (u32_max <? e)) eqn:R; [discriminate|].
  apply orb_false_iff in R. destruct R as [R1 _]. apply Z.ltb_ge in R1.
  destruct (b =? 0) eqn:B0.
  - apply Z.eqb_eq in B0. subst b. intros H. inversion H. split; [|exact R1]. destruct (e =? 0) eqn:E0.
    + apply Z.eqb_eq in E0. subst. reflexivity.
    + apply Z.eqb_neq in E0. rewrite Z.pow_0_l by lia. reflexivity.
  - destruct (b =? 1) eqn:B1.
    + apply Z.eqb_eq in B1. subst b. intros H. inversion H. rewrite Z.pow_1_l by lia. split; [reflexivity|exact R1].
    + destruct (b =? -1) eqn:Bm.
      * apply Z.eqb_eq in Bm. subst b. intros H. inversion H. split; [|exact R1].
        destruct (Z.even e) eqn:Ev.
        -- apply Z.even_spec in Ev. destruct Ev as [k ->]. rewrite Z.pow_mul_r by lia. change ((-1) ^ 2) with 1.
           rewrite Z.pow_1_l by lia. reflexivity.
        -- assert (Od : Z.odd e = true) by (rewrite <- Z.negb_even, Ev; reflexivity).
           apply Z.odd_spec in Od. destruct Od as [k ->]. rewrite Z.pow_add_r, Z.pow_mul_r by lia. change ((-1) ^ 2) with 1.
           rewrite Z.pow_1_l by lia. reflexivity.
      * destruct (64 <? e); [discriminate|]. intros H. apply zpow_checked_exact in H; [|exact R1]. split; [lia|exact R1].
Qed.

Theorem int_pow_negative_exponent inr b e : e < 0 -> int_pow inr b e = None.
Proof. intros H. unfold int_pow. assert (E : (e <? 0) = true) by (apply Z.ltb_lt; lia). rewrite E. reflexivity. Qed.

