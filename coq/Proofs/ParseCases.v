(* Proofs/ParseCases.v — the three places where the parser looks at one token and falls through to a large
   default (`match` or a conditional in parse_expression, the closing brace or another arm in the case loop,
   a type name or a comparison in parse_match_pattern), with the default named: each parser is, pointwise, a
   two-way choice between named parsers, so a proof about it never splits on all the tokens. *)
From Coq Require Import ZArith List Bool.
From Rscel Require Import Base.Prims Base.F64 Base.Text Model.Value Model.Funcs Model.Lexer Model.Ast Model.Parser.
Import ListNotations.
Import Coq.Strings.String.StringSyntax.
Open Scope Z_scope.

Lemma pbind_ok {A B} (m : P A) (f : A -> P B) t b t' : pbind m f t = POk b t' -> exists a t1, m t = POk a t1 /\ f a t1 = POk b t'.
Proof. unfold pbind. destruct (m t) as [a t1| |]; try discriminate. eauto. Qed.

Lemma pbind_ext {A B} (m : P A) (f g : A -> P B) t : (forall a t1, f a t1 = g a t1) -> pbind m f t = pbind m g t.
Proof. intros H. unfold pbind. destruct (m t); [apply H|reflexivity|reflexivity]. Qed.

Definition match_tok (o : option tokloc) : option range := match o with Some (mkTok TMatch l) => Some l | _ => None end.
Definition rbrace_tok (o : option tokloc) : option range := match o with Some (mkTok TRBrace l) => Some l | _ => None end.
Definition ident_tok (o : option tokloc) : option chars := match o with Some (mkTok (TIdent i) _) => Some i | _ => None end.

Lemma match_tok_some o l : match_tok o = Some l -> o = Some (mkTok TMatch l).
Proof. destruct o as [[[] l']|]; try discriminate. intros E. injection E as ->. reflexivity. Qed.
Lemma rbrace_tok_some o l : rbrace_tok o = Some l -> o = Some (mkTok TRBrace l).
Proof. destruct o as [[[] l']|]; try discriminate. intros E. injection E as ->. reflexivity. Qed.

Section Cases.
  Variable rec_expr : P expr.
  Variable rec_src : chars -> pres unit.

  Definition p_cond : P expr :=
    let! l := p_cor rec_expr rec_src in
    let! q := peek in
    if is_tok q TQuestion then
      let! _ := next in
      let! tc := p_cor rec_expr rec_src in
      let! col := next in
      if negb (is_tok col TColon) then fail_here
      else let! fc := rec_expr in pret (ETernary (surrounding (cor_range l) (expr_range fc)) l tc fc)
    else pret (EUnary (cor_range l) l).

  Definition p_match (ml : range) : P expr :=
    let! _ := next in
    let! c := rec_expr in
    let! lb := next in
    if negb (is_tok lb TLBrace) then fail_here
    else fun t => (let! rc := p_cases rec_expr rec_src (loop_fuel t) true (surrounding ml (expr_range c)) [] in
                   let! _ := next in
                   pret (EMatch (fst rc) c (snd rc))) t.

  Lemma p_expr_body_eq t :
    p_expr_body rec_expr rec_src t =
    (let! o := peek in match match_tok o with Some ml => p_match ml | None => p_cond end) t.
  Proof. apply pbind_ext. intros [[[] l]|] t1; reflexivity. Qed.

  (** one more arm of a match, after the peek that did not see the closing brace *)
  Definition p_case (n : nat) (comma_seen : bool) (rng : range) (acc : list mcase) : P (range * list mcase) :=
    if negb comma_seen then fail_here
    else
      let! ct := next in
      if negb (is_tok ct TCase) then fail_here
      else
        let! pat := p_pattern rec_expr rec_src in
        let! col := next in
        if negb (is_tok col TColon) then fail_here
        else
          let! e := rec_expr in
          let c := MCase (surrounding (mpat_range pat) (expr_range e)) pat e in
          let! cm := peek in
          if is_tok cm TComma then let! _ := next in p_cases rec_expr rec_src n true rng (c :: acc)
          else p_cases rec_expr rec_src n false rng (c :: acc).

  Lemma p_cases_eq n comma rng acc t :
    p_cases rec_expr rec_src (S n) comma rng acc t =
    (let! rb := peek in
     match rbrace_tok rb with Some rl => pret (surrounding rng rl, rev acc) | None => p_case n comma rng acc end) t.
  Proof. cbn [p_cases]. apply pbind_ext. intros [[[] l]|] t1; reflexivity. Qed.

  Definition p_cmp_pattern (start : loc) : P mpat :=
    let! o := peek in
    let! op := match o with
               | Some t => match cmpop_of (t_tok t) with
                           | Some c => let! _ := next in pret c
                           | None => pret CEq
                           end
               | None => pret CEq
               end in
    let! ope := here in
    let! c := p_cor rec_expr rec_src in
    let! e := here in
    pret (MPatCmp (mkRange start e) (mkRange start ope) op c).

  Definition p_ident_pattern (start : loc) (i : chars) : P mpat :=
    if bytes_eqb i #"_" then
      let! _ := next in let! e := here in pret (MPatAny (mkRange start e) (mkRange start e))
    else if is_type_name i then
      match mtype_of i with
      | Some ty => let! _ := next in let! e := here in pret (MPatType (mkRange start e) (mkRange start e) ty i)
      | None => p_cmp_pattern start
      end
    else p_cmp_pattern start.

  Lemma p_pattern_eq t :
    p_pattern rec_expr rec_src t =
    (let! start := here in
     let! o := peek in
     match ident_tok o with Some i => p_ident_pattern start i | None => p_cmp_pattern start end) t.
  Proof. apply pbind_ext. intros start t0. apply pbind_ext. intros [[[] l]|] t1; reflexivity. Qed.
End Cases.
