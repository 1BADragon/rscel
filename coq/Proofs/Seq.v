(* Proofs/Seq.v — sequencing of closed blocks, and the FMT instruction (C14:
   an f-string is the concatenation of its segments' strings). *)
From Coq Require Import ZArith List Bool Lia Arith.
From Rscel Require Import Base.Prims Base.F64 Base.Text Model.Value Model.Ops Model.Dispatch Model.Funcs
     Model.Interp Spec.WfCode Proofs.VM Proofs.Blocks.
Import ListNotations.
Open Scope Z_scope.

Section Seq.
  Variable rs : runner.
  Variable E : env.
  Variable d : nat.

  Lemma closed_app c1 c2 : closed c1 -> closed c2 -> closed (c1 ++ c2).
  Proof.
    intros H1 H2 pc i Hn. destruct (lt_dec pc (length c1)) as [L|L].
    - rewrite nth_error_app1 in Hn by assumption. specialize (H1 pc i Hn). destruct i; try exact I;
        (destruct H1 as [A B]; split; [exact A|rewrite app_length; lia]).
    - rewrite nth_error_app2 in Hn by lia. specialize (H2 _ i Hn). destruct i; try exact I;
        (destruct H2 as [A B]; split; [exact A|rewrite app_length; lia]).
  Qed.

  Lemma closed_nil : closed [].
  Proof. intros pc i H. destruct pc; discriminate. Qed.

  (** [runs c lg st st' lg']: the block runs from its start to its end, turning stack and log *)
  Definition runs (c : code) (lg : log) (st st' : stack) (lg' : log) : Prop :=
    exists f, loop rs f E d c O st lg = (ROk st', lg').

  Lemma runs_nil lg st : runs [] lg st st lg.
  Proof. exists 1%nat. reflexivity. Qed.

  Lemma runs_app c1 c2 lg st st1 lg1 st2 lg2 :
    closed c1 -> closed c2 -> runs c1 lg st st1 lg1 -> runs c2 lg1 st1 st2 lg2 -> runs (c1 ++ c2) lg st st2 lg2.
  Proof.
    intros H1 H2 [f1 R1] [f2 R2]. apply yields_run.
    apply yields_app with (1 := closed_yields rs E d c1 f1 st lg _ H1 R1 ltac:(discriminate)).
    exact (closed_yields rs E d c2 f2 st1 lg1 _ H2 R2 ltac:(discriminate)).
  Qed.

  Inductive pushes_all : list code -> log -> list sval -> log -> Prop :=
  | pa_nil lg : pushes_all [] lg [] lg
  | pa_cons c cs lg sv lg1 svs lg2 :
      pushes rs E d c lg sv lg1 -> pushes_all cs lg1 svs lg2 -> pushes_all (c :: cs) lg (sv :: svs) lg2.

  Lemma pushes_all_yields cs lg svs lg' : pushes_all cs lg svs lg' ->
    forall st, yields rs E d (concat cs) st lg (ROk (rev svs ++ st), lg').
  Proof.
    induction 1 as [lg|c cs lg sv lg1 svs lg2 Hp Hr IH]; intros st; [apply yields_nil|].
    cbn [concat rev]. rewrite <- app_assoc.
    exact (yields_app rs E d _ _ _ _ _ _ _ (pushes_yields rs E d c lg sv lg1 st Hp) (IH (sv :: st))).
  Qed.

  (** FMT n over n strings on the stack (last segment on top): their concatenation, in order *)
  Lemma pop_strings : forall ts st lg,
    pop_n rs E d (length ts) (map (fun t => SVal (VString t)) (rev ts) ++ st) lg =
    (ROk (map VString (rev ts), st), lg).
  Proof.
    intros ts. rewrite <- (rev_length ts). generalize (rev ts) as l. clear ts.
    induction l as [|t r IH]; intros st lg; [reflexivity|].
    cbn [length pop_n map app]. unfold mbind at 1. unfold pop_val, mbind at 1. cbn [pop mret]. cbn [fst snd into_value].
    unfold mbind. cbn [mret]. rewrite IH. reflexivity.
  Qed.

  Theorem fmt_step ts st lg :
    step rs E d (IFmt (Z.of_nat (length ts))) (map (fun t => SVal (VString t)) (rev ts) ++ st) lg =
    (ROk (None, SVal (VString (concat ts)) :: st), lg).
  Proof.
    cbn [step]. rewrite Nat2Z.id. unfold mbind at 1. rewrite pop_strings.
    rewrite map_rev, rev_involutive.
    assert (G : forall l acc,
      (fix cat (l0 : list value) (acc0 : bytes) {struct l0} : M (option Z * stack) :=
         match l0 with
         | [] => mret (None, push (VString acc0) st)
         | VString s :: l' => cat l' (acc0 ++ s)
         | _ => mfail ERuntime
         end) (map VString l) acc lg = (ROk (None, SVal (VString (acc ++ concat l)) :: st), lg)).
    { induction l as [|t r IH]; intros acc; cbn [map concat].
      - rewrite app_nil_r. reflexivity.
      - rewrite IH, app_assoc. reflexivity. }
    apply (G ts []).
  Qed.

  (** An f-string block: the segment blocks in order, then FMT.  If segment i
      leaves the string t_i, the whole leaves t_1 ++ ... ++ t_n. *)
  Theorem fstring_block cs lg ts lg' :
    pushes_all cs lg (map (fun t => SVal (VString t)) ts) lg' ->
    forall st, runs (concat cs ++ [IFmt (Z.of_nat (length ts))]) lg st (SVal (VString (concat ts)) :: st) lg'.
  Proof.
    intros H st. apply yields_run.
    apply yields_app with (1 := pushes_all_yields _ _ _ _ H st).
    eapply yields_cons; [|apply yields_nil]. rewrite <- map_rev. apply fmt_step.
  Qed.
End Seq.
