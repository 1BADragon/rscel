(* Proofs/Whitespace.v — C02: white space between tokens is skipped, whatever its amount: the tokenizer
   reaches the same character, with the same remaining input, after any run of blanks, tabs and newlines. *)
From Coq Require Import ZArith List Bool Lia.
From Rscel Require Import Base.Prims Base.F64 Base.Text Model.Value Model.Lexer Proofs.Literals.
Import ListNotations.
Open Scope Z_scope.

Definition is_ws (c : Z) : bool := (c =? 32) || (c =? 9) || (c =? 10).

Lemma skip_ws_blanks : forall ws f s rest, Forall (fun x => is_ws x = true) ws -> sc_rest s = ws ++ rest ->
  skip_ws (length ws + f) s = skip_ws f (advance s ws).
Proof.
  induction ws as [|w r IH]; intros f s rest Hw Hs; [reflexivity|]. cbn [length Nat.add skip_ws app] in *.
  destruct (sc_next_cons s w _ Hs) as [E Er]. rewrite E. pose proof (Forall_inv Hw) as Hw1. unfold is_ws in Hw1. rewrite Hw1.
  exact (IH f _ rest (Forall_inv_tail Hw) Er).
Qed.

Lemma skip_ws_run ws fuel s c rest :
  Forall (fun x => is_ws x = true) ws -> is_ws c = false ->
  sc_rest s = ws ++ c :: rest -> (length ws < fuel)%nat ->
  skip_ws fuel s = (sc_loc (advance s ws), Some c, advance s (ws ++ [c])).
Proof.
  intros Hw Hc Hs Hf. replace fuel with (length ws + S (fuel - S (length ws)))%nat by lia.
  rewrite (skip_ws_blanks ws _ s _ Hw Hs), advance_app. cbn [skip_ws].
  rewrite (proj1 (sc_next_cons _ c rest (advance_rest ws s _ Hs))). unfold is_ws in Hc. rewrite Hc. reflexivity.
Qed.

Lemma skip_ws_to_end : forall ws fuel s, Forall (fun x => is_ws x = true) ws -> sc_rest s = ws -> (length ws < fuel)%nat ->
  skip_ws fuel s = (sc_loc (advance s ws), None, advance s ws).
Proof.
  intros ws fuel s Hw Hs Hf. replace fuel with (length ws + S (fuel - S (length ws)))%nat by lia.
  rewrite <- (app_nil_r ws) in Hs. rewrite (skip_ws_blanks ws _ s _ Hw Hs). cbn [skip_ws].
  unfold sc_next. rewrite (advance_rest ws s _ Hs). reflexivity.
Qed.

(** the first token of a source does not depend on how much white space precedes it, as far as
    the character it starts with and the input that follows are concerned *)
Theorem leading_whitespace_irrelevant ws1 ws2 c rest :
  Forall (fun x => is_ws x = true) ws1 -> Forall (fun x => is_ws x = true) ws2 -> is_ws c = false ->
  let r1 := skip_ws (S (length (ws1 ++ c :: rest))) (mkScan (ws1 ++ c :: rest) 0 0) in
  let r2 := skip_ws (S (length (ws2 ++ c :: rest))) (mkScan (ws2 ++ c :: rest) 0 0) in
  snd (fst r1) = snd (fst r2) /\ sc_rest (snd r1) = sc_rest (snd r2) /\ sc_rest (snd r1) = rest.
Proof.
  intros H1 H2 Hc r1 r2.
  assert (A : forall ws, Forall (fun x => is_ws x = true) ws ->
            let r := skip_ws (S (length (ws ++ c :: rest))) (mkScan (ws ++ c :: rest) 0 0) in
            snd (fst r) = Some c /\ sc_rest (snd r) = rest).
  { intros ws Hw. cbv zeta. rewrite (skip_ws_run ws _ (mkScan (ws ++ c :: rest) 0 0) c rest Hw Hc eq_refl)
      by (rewrite app_length; cbn; lia).
    split; [reflexivity|]. apply (advance_rest (ws ++ [c]) _ rest). cbn [sc_rest]. rewrite <- app_assoc. reflexivity. }
  destruct (A ws1 H1) as [A1 B1], (A ws2 H2) as [A2 B2]. unfold r1, r2. rewrite A1, A2, B1, B2. auto.
Qed.
