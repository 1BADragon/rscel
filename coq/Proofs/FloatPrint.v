(* Proofs/FloatPrint.v — C14: double(string(d)) == d: what the float printer returns reads back as the same double.
   The printer accepts a candidate only after reading it back, so the content here is that the
   acceptance test means equality, and that the minus sign put in front of a negative double is read
   as its negation (the candidate starts with a digit). *)
From Coq Require Import ZArith List Bool Lia.
From Coq Require Import Floats.SpecFloat.
From Rscel Require Import Base.Prims Base.F64 Base.Text Base.FloatText Base.FloatPrint.
From Rscel Require Import Proofs.Literals Proofs.Conv.
Import ListNotations.
Open Scope Z_scope.

Lemma sf_eqb_eq a b : sf_eqb a b = true -> a = b.
Proof.
  destruct a as [s1|s1| |s1 m1 e1], b as [s2|s2| |s2 m2 e2]; cbn; try discriminate; try reflexivity.
  - intros H. apply Bool.eqb_prop in H. subst. reflexivity.
  - intros H. apply Bool.eqb_prop in H. subst. reflexivity.
  - intros H. apply andb_true_iff in H. destruct H as [H H3]. apply andb_true_iff in H. destruct H as [H1 H2].
    apply Bool.eqb_prop in H1. apply Pos.eqb_eq in H2. apply Z.eqb_eq in H3. subst. reflexivity.
Qed.

Lemma first_some {A} (b1 b2 : bool) (t1 t2 t : A) :
  (if b1 then Some t1 else if b2 then Some t2 else None) = Some t -> b1 = true /\ t = t1 \/ b2 = true /\ t = t2.
Proof. destruct b1; [intros [= <-]; auto|]. destruct b2; [intros [= <-]; auto|discriminate]. Qed.

Lemma try_digits_inv x num den k n t : try_digits x num den k n = Some t ->
  exists c, 0 < c /\ t = candidate_text c (k - n) /\ rust_parse_f64 t = Some x.
Proof.
  unfold try_digits. destruct (if 0 <=? n - k then _ else _) as [snum sden]. cbv zeta. intros H.
  apply first_some in H. destruct H as [[B ->]|[B ->]]; apply andb_true_iff in B; destruct B as [P O];
    apply Z.ltb_lt in P; (eexists; split; [exact P|split; [reflexivity|]]);
    (destruct (rust_parse_f64 _) as [y|]; [apply sf_eqb_eq in O; subst y; reflexivity|discriminate O]).
Qed.

Lemma shortest_inv : forall fuel x num den k n t, shortest fuel x num den k n = Some t ->
  exists c e10, 0 < c /\ t = candidate_text c e10 /\ rust_parse_f64 t = Some x.
Proof.
  induction fuel as [|f IH]; intros x num den k n t H; [discriminate|]. cbn [shortest] in H.
  destruct (try_digits x num den k n) as [s|] eqn:T; [|exact (IH _ _ _ _ _ _ H)].
  injection H as <-. destruct (try_digits_inv _ _ _ _ _ _ T) as (c & Hc). exists c, (k - n). exact Hc.
Qed.

Theorem print_specials :
  print_f64 S754_nan = Some [78; 97; 78] /\ print_f64 (S754_infinity false) = Some [105; 110; 102] /\
  print_f64 (S754_infinity true) = Some [45; 105; 110; 102] /\ print_f64 (S754_zero false) = Some [48] /\
  print_f64 (S754_zero true) = Some [45; 48] /\
  rust_parse_f64 [78; 97; 78] = Some S754_nan /\ rust_parse_f64 [105; 110; 102] = Some (S754_infinity false) /\
  rust_parse_f64 [45; 105; 110; 102] = Some (S754_infinity true) /\ rust_parse_f64 [48] = Some (S754_zero false) /\
  rust_parse_f64 [45; 48] = Some (S754_zero true).
Proof. vm_compute. repeat split. Qed.

Lemma parse_with_minus d r y : is_digit d = true -> rust_parse_f64 (d :: r) = Some y ->
  rust_parse_f64 (45 :: d :: r) = Some (SFopp y).
Proof.
  intros Hd. pose proof (strip_sign_digit d r Hd) as M. unfold strip_sign in M. unfold rust_parse_f64. rewrite M.
  cbv iota beta zeta.
  destruct (bytes_eqb _ _ || bytes_eqb _ _); [intros [= <-]; reflexivity|].
  destruct (bytes_eqb _ _); [intros [= <-]; reflexivity|].
  destruct (parse_float_text (d :: r)); [intros [= <-]; reflexivity|discriminate].
Qed.

Lemma positional_head digits e10 : 0 <= digits -> exists d r, positional digits e10 = d :: r /\ is_digit d = true.
Proof.
  intros H. unfold positional. destruct (dec_head_digit digits H) as (d & r & E & Hd). rewrite E.
  set (n := Z.of_nat (length (d :: r))). destruct (n + e10 <=? 0) eqn:K; [exists 48, (46 :: zeros (- (n + e10)) ++ d :: r); split; reflexivity|].
  destruct (n <=? n + e10); [exists d, (r ++ zeros (n + e10 - n)); split; [reflexivity|exact Hd]|].
  apply Z.leb_gt in K. destruct (Z.to_nat (n + e10)) as [|k] eqn:EK; [lia|]. cbn [firstn app]. eexists d, _. split; [reflexivity|exact Hd].
Qed.

Lemma strip_zeros_nonneg : forall fuel d z, 0 <= d -> 0 <= fst (strip_zeros fuel d z).
Proof.
  induction fuel as [|f IH]; intros d z H; [exact H|]. cbn [strip_zeros].
  destruct ((d mod 10 =? 0) && negb (d =? 0)); [apply IH; apply Z.div_pos; lia|exact H].
Qed.

Lemma candidate_head c e10 : 0 <= c -> exists d r, candidate_text c e10 = d :: r /\ is_digit d = true.
Proof.
  intros H. unfold candidate_text. pose proof (strip_zeros_nonneg 20 c 0 H) as N.
  destruct (strip_zeros 20 c 0) as [d' z]. cbn [fst] in N. apply positional_head. exact N.
Qed.

(** every finite double: what the printer writes reads back as that double, sign included *)
Theorem print_reads_back s m e t : print_f64 (S754_finite s m e) = Some t -> rust_parse_f64 t = Some (S754_finite s m e).
Proof.
  cbn [print_f64]. destruct (ratio_of m e) as [num den].
  destruct (shortest 17 (S754_finite false m e) num den (dec_exponent num den) 1) as [t0|] eqn:S; [|discriminate].
  intros [= <-]. destruct (shortest_inv _ _ _ _ _ _ _ S) as (c & e10 & Hc & -> & R).
  destruct s; [|exact R]. destruct (candidate_head c e10 ltac:(lia)) as (d & r & E & Hd). rewrite E in *.
  exact (parse_with_minus d r _ Hd R).
Qed.
