(* Proofs/StrLit.v — C13: quoted string literals denote the characters they
   spell, for every supported spelling of every character chosen independently;
   raw strings denote their text verbatim. *)
From Coq Require Import ZArith List Bool Lia.
From Rscel Require Import Base.Prims Base.F64 Base.Text Model.Value Model.Lexer Proofs.Literals.
Import ListNotations.
Open Scope Z_scope.

Definition hex_value (hs : chars) : Z := fold_left (fun a h => a * 16 + hex_val h) hs 0.

Lemma hex_digits_run : forall hs s tail acc,
  sc_rest s = hs ++ tail -> Forall (fun h => is_hex h = true) hs ->
  hex_digits (length hs) s acc = LOk (fold_left (fun a h => a * 16 + hex_val h) hs acc) (advance s hs).
Proof.
  induction hs as [|h r IH]; intros s tail acc Hs Hh; [reflexivity|]. cbn [length hex_digits]. cbn [app] in Hs.
  destruct (sc_next_cons s h (r ++ tail) Hs) as [E1 E2]. rewrite E1. rewrite (Forall_inv Hh).
  rewrite (IH (advance s [h]) tail _ E2 (Forall_inv_tail Hh)). reflexivity.
Qed.

Lemma extract_hex_run hs s tail : sc_rest s = hs ++ tail -> Forall (fun h => is_hex h = true) hs ->
  extract_hex (length hs) s =
  if is_scalar (hex_value hs) then LOk (hex_value hs) (advance s hs) else LErr (sc_loc (advance s hs)).
Proof. intros Hs Hh. unfold extract_hex. rewrite (hex_digits_run hs s tail 0 Hs Hh). reflexivity. Qed.

Lemma oct_val_digit a : 0 <= a <= 7 -> oct_val (48 + a) = Some a.
Proof.
  intros H. unfold oct_val. rewrite (proj2 (andb_true_iff _ _)) by (rewrite !Z.leb_le; lia). f_equal. lia.
Qed.

Lemma octal3_run a b c s tail : 0 <= a <= 7 -> 0 <= b <= 7 -> 0 <= c <= 7 ->
  sc_rest s = (48 + b) :: (48 + c) :: tail ->
  octal3 (48 + a) s = LOk (a * 64 + b * 8 + c) (advance s [48 + b; 48 + c]).
Proof.
  intros Ha Hb Hc Hs. destruct (sc_next_cons s _ _ Hs) as [E1 E2]. destruct (sc_next_cons _ _ _ E2) as [E3 _].
  unfold octal3. rewrite E1, E3, !oct_val_digit by assumption. reflexivity.
Qed.

Definition simple_escape (e : Z) : option Z :=
  if e =? 97 then Some 7 else if e =? 98 then Some 8 else if e =? 102 then Some 12
  else if e =? 110 then Some 10 else if e =? 114 then Some 13 else if e =? 116 then Some 9
  else if e =? 118 then Some 11 else if e =? 92 then Some 92 else if e =? 39 then Some 39
  else if e =? 34 then Some 34 else None.

Lemma simple_escape_inv e c : simple_escape e = Some c ->
  In (e, c) [(97, 7); (98, 8); (102, 12); (110, 10); (114, 13); (116, 9); (118, 11); (92, 92); (39, 39); (34, 34)].
Proof.
  unfold simple_escape.
  repeat (destruct (e =? _) eqn:T; [apply Z.eqb_eq in T; subst e; intros [= <-]; cbn [In]; tauto|clear T]). discriminate.
Qed.

(** an escape character with no special meaning stands for itself *)
Definition plain_escape (e : Z) : bool :=
  negb ((e =? 97) || (e =? 98) || (e =? 102) || (e =? 110) || (e =? 114) || (e =? 116) || (e =? 117) || (e =? 85)
        || (e =? 118) || (e =? 120) || (e =? 88) || (e =? 92) || (e =? 39) || (e =? 34) || is_digit e).

(** [spells q c sp]: inside a string delimited by [q] (not raw, not an
    f-string) the text [sp] is a spelling of the character [c] *)
Inductive spells (q : Z) : Z -> chars -> Prop :=
| sp_plain c : c <> q -> c <> 92 -> spells q c [c]
| sp_simple e c : simple_escape e = Some c -> spells q c [92; e]
| sp_other e : plain_escape e = true -> spells q e [92; e]
| sp_x x h1 h2 : (x = 120 \/ x = 88) -> is_hex h1 = true -> is_hex h2 = true -> spells q (hex_value [h1; h2]) [92; x; h1; h2]
| sp_u hs : length hs = 4%nat -> Forall (fun h => is_hex h = true) hs -> is_scalar (hex_value hs) = true ->
            spells q (hex_value hs) (92 :: 117 :: hs)
| sp_U hs : length hs = 8%nat -> Forall (fun h => is_hex h = true) hs -> is_scalar (hex_value hs) = true ->
            spells q (hex_value hs) (92 :: 85 :: hs)
| sp_oct a b c : 0 <= a <= 7 -> 0 <= b <= 7 -> 0 <= c <= 7 -> spells q (a * 64 + b * 8 + c) [92; 48 + a; 48 + b; 48 + c].

Definition text_of (items : list (Z * chars)) : chars := flat_map snd items.

Lemma x_hex_value h1 h2 : is_hex h1 = true -> is_hex h2 = true -> 0 <= hex_value [h1; h2] <= 255.
Proof. intros H1 H2. pose proof (hex_val_range h1 H1). pose proof (hex_val_range h2 H2). unfold hex_value. cbn [fold_left]. lia. Qed.

Lemma small_scalar v : 0 <= v <= 511 -> is_scalar v = true.
Proof. intros H. unfold is_scalar. apply orb_true_iff. left. apply andb_true_iff. rewrite Z.leb_le, Z.ltb_lt. lia. Qed.

Lemma extract_hex2 s h1 h2 tail : sc_rest s = h1 :: h2 :: tail -> is_hex h1 = true -> is_hex h2 = true ->
  extract_hex 2 s = LOk (hex_value [h1; h2]) (advance s [h1; h2]).
Proof.
  intros Hs H1 H2. change 2%nat with (length [h1; h2]). rewrite (extract_hex_run [h1; h2] s tail Hs) by (repeat constructor; assumption).
  rewrite small_scalar by (pose proof (x_hex_value h1 h2 H1 H2); lia). reflexivity.
Qed.

Lemma lex_string_plain f q raw s c r work : sc_rest s = c :: r -> c <> q -> raw = true \/ c <> 92 ->
  lex_string (S f) q raw false s work [] = lex_string f q raw false (advance s [c]) (c :: work) [].
Proof.
  intros Hs Hq Hb. cbn [lex_string]. rewrite (proj1 (sc_next_cons s c r Hs)), (proj2 (Z.eqb_neq c q) Hq).
  assert (E : (c =? 92) && negb raw = false)
    by (destruct Hb as [->|Hb]; [apply andb_false_r|rewrite (proj2 (Z.eqb_neq c 92) Hb); reflexivity]).
  rewrite E, !andb_false_r. reflexivity.
Qed.

Lemma lex_string_quote f q raw s r work : sc_rest s = q :: r ->
  lex_string (S f) q raw false s work [] = LOk (TStringLit (rev work)) (advance s [q]).
Proof. intros Hs. cbn [lex_string]. rewrite (proj1 (sc_next_cons s q r Hs)), Z.eqb_refl. reflexivity. Qed.

Lemma lex_string_esc f q fmt s e r work segs : sc_rest s = 92 :: e :: r -> q <> 92 ->
  lex_string (S f) q false fmt s work segs =
  let s2 := advance s [92; e] in
  let simple ch := lex_string f q false fmt s2 (ch :: work) segs in
  let hexn n := match extract_hex n s2 with
                | LOk v s3 => lex_string f q false fmt s3 (v :: work) segs
                | LErr l => LErr l
                | LFuel => LFuel
                end in
  if e =? 97 then simple 7 else if e =? 98 then simple 8 else if e =? 102 then simple 12
  else if e =? 110 then simple 10 else if e =? 114 then simple 13 else if e =? 116 then simple 9
  else if e =? 117 then hexn 4%nat else if e =? 85 then hexn 8%nat
  else if e =? 118 then simple 11
  else if (e =? 120) || (e =? 88) then hexn 2%nat
  else if e =? 92 then simple 92 else if e =? 39 then simple 39 else if e =? 34 then simple 34
  else if is_digit e then
    match octal3 e s2 with
    | LOk v s3 => if is_scalar v then lex_string f q false fmt s3 (v :: work) segs else LErr (sc_loc s3)
    | LErr l => LErr l
    | LFuel => LFuel
    end
  else simple e.
Proof.
  intros Hs Hq. destruct (sc_next_cons s 92 _ Hs) as [E1 E2]. cbn [lex_string].
  rewrite E1, (proj2 (Z.eqb_neq 92 q)) by congruence. change ((92 =? 92) && negb false) with true. cbv iota.
  rewrite (proj1 (sc_next_cons _ e r E2)). reflexivity.
Qed.

Lemma lex_string_esc_digit f q fmt s e r work segs : sc_rest s = 92 :: e :: r -> q <> 92 -> is_digit e = true ->
  lex_string (S f) q false fmt s work segs =
  match octal3 e (advance s [92; e]) with
  | LOk v s3 => if is_scalar v then lex_string f q false fmt s3 (v :: work) segs else LErr (sc_loc s3)
  | LErr l => LErr l
  | LFuel => LFuel
  end.
Proof.
  intros Hs Hq Hd. rewrite (lex_string_esc f q fmt s e r work segs Hs Hq). apply digit_cases in Hd.
  repeat destruct Hd as [->|Hd]; try subst e; reflexivity.
Qed.

Lemma is_digit_oct a : 0 <= a <= 7 -> is_digit (48 + a) = true.
Proof. intros H. apply is_digit_iff. lia. Qed.

Lemma lex_string_char q c sp : spells q c sp -> q <> 92 ->
  forall fuel s tail work,
    sc_rest s = sp ++ tail ->
    lex_string (S fuel) q false false s work [] = lex_string fuel q false false (advance s sp) (c :: work) [].
Proof.
  intros Hsp Hq92 fuel s tail work Hs.
  destruct Hsp as [c Hq Hb|e c He|e He|x h1 h2 Hx H1 H2|hs Hl Hh Hsc|hs Hl Hh Hsc|a b c Ha Hb Hc]; cbn [app] in Hs.
  - exact (lex_string_plain fuel q false s c tail work Hs Hq (or_intror Hb)).
  - rewrite (lex_string_esc _ _ _ s e tail _ _ Hs Hq92). apply simple_escape_inv in He. cbn [In] in He.
    repeat destruct He as [[= <- <-]|He]; try contradiction; reflexivity.
  - rewrite (lex_string_esc _ _ _ s e tail _ _ Hs Hq92). cbv zeta. unfold plain_escape in He. all_false He. reflexivity.
  - rewrite (lex_string_esc _ _ _ s x _ _ _ Hs Hq92). cbv beta zeta.
    rewrite (extract_hex2 _ h1 h2 tail (advance_rest [92; x] s _ Hs) H1 H2).
    destruct Hx; subst x; reflexivity.
  - rewrite (lex_string_esc _ _ _ s 117 _ _ _ Hs Hq92). cbv beta iota zeta. cbn [Z.eqb Pos.eqb].
    rewrite <- Hl, (extract_hex_run hs _ tail (advance_rest [92; 117] s _ Hs) Hh), Hsc, <- advance_app. reflexivity.
  - rewrite (lex_string_esc _ _ _ s 85 _ _ _ Hs Hq92). cbv beta iota zeta. cbn [Z.eqb Pos.eqb].
    rewrite <- Hl, (extract_hex_run hs _ tail (advance_rest [92; 85] s _ Hs) Hh), Hsc, <- advance_app. reflexivity.
  - rewrite (lex_string_esc_digit _ _ _ s (48 + a) _ _ _ Hs Hq92 (is_digit_oct a Ha)).
    rewrite (octal3_run a b c _ tail Ha Hb Hc (advance_rest [92; 48 + a] s _ Hs)), small_scalar by lia. reflexivity.
Qed.

(** A quoted string: every character spelled in any supported way, then the
    closing quote.  The token carries exactly the spelled characters. *)
Theorem lex_string_denotes q : q <> 92 -> forall items fuel s tail work,
  Forall (fun it => spells q (fst it) (snd it)) items ->
  sc_rest s = text_of items ++ q :: tail -> (length items < fuel)%nat ->
  lex_string fuel q false false s work [] =
  LOk (TStringLit (rev work ++ map fst items)) (advance s (text_of items ++ [q])).
Proof.
  intros Hq. induction items as [|[c sp] r IH]; intros fuel s tail work Hsp Hs Hf;
    (destruct fuel as [|f]; [cbn in Hf; lia|]); cbn [text_of flat_map snd app] in *.
  - rewrite (lex_string_quote f q false s tail work Hs), app_nil_r. reflexivity.
  - rewrite <- app_assoc in Hs. rewrite (lex_string_char q c sp (Forall_inv Hsp) Hq f s _ work Hs).
    rewrite (IH f _ tail (c :: work) (Forall_inv_tail Hsp) (advance_rest sp s _ Hs)) by (cbn [length] in Hf; lia).
    cbn [rev map fst]. rewrite <- !app_assoc, (advance_app s sp). reflexivity.
Qed.

(** A raw string denotes its text verbatim: nothing is an escape. *)
Theorem lex_raw_string_denotes q : forall cs fuel s tail work,
  Forall (fun c => c <> q) cs -> sc_rest s = cs ++ q :: tail -> (length cs < fuel)%nat ->
  lex_string fuel q true false s work [] = LOk (TStringLit (rev work ++ cs)) (advance s (cs ++ [q])).
Proof.
  induction cs as [|c r IH]; intros fuel s tail work Hc Hs Hf;
    (destruct fuel as [|f]; [cbn in Hf; lia|]); cbn [app] in *.
  - rewrite (lex_string_quote f q true s tail work Hs), app_nil_r. reflexivity.
  - rewrite (lex_string_plain f q true s c _ work Hs (Forall_inv Hc) (or_introl eq_refl)).
    rewrite (IH f _ tail (c :: work) (Forall_inv_tail Hc) (proj2 (sc_next_cons s c _ Hs))) by (cbn [length] in Hf; lia).
    cbn [rev]. rewrite <- app_assoc. reflexivity.
Qed.

Definition plain_escape_b (e : Z) : bool :=
  negb ((e =? 97) || (e =? 98) || (e =? 102) || (e =? 110) || (e =? 114) || (e =? 116)
        || (e =? 118) || (e =? 120) || (e =? 88) || (e =? 92) || (e =? 39) || (e =? 34) || is_digit e).

(** [bspells q bs sp]: inside a bytes literal delimited by [q] the text [sp] spells the bytes [bs] *)
Inductive bspells (q : Z) : bytes -> chars -> Prop :=
| bs_plain c : c <> q -> c <> 92 -> bspells q (utf8_encode_char c) [c]
| bs_simple e b : simple_escape e = Some b -> bspells q [b] [92; e]
| bs_other e : plain_escape_b e = true -> bspells q (utf8_encode_char e) [92; e]
| bs_x x h1 h2 : (x = 120 \/ x = 88) -> is_hex h1 = true -> is_hex h2 = true -> bspells q [hex_value [h1; h2]] [92; x; h1; h2]
| bs_oct a b c : 0 <= a <= 3 -> 0 <= b <= 7 -> 0 <= c <= 7 -> bspells q [a * 64 + b * 8 + c] [92; 48 + a; 48 + b; 48 + c].

Lemma lex_bytes_esc f q s e r acc : sc_rest s = 92 :: e :: r -> q <> 92 ->
  lex_bytes (S f) q s acc =
  let s2 := advance s [92; e] in
  let simple b := lex_bytes f q s2 (b :: acc) in
  if e =? 97 then simple 7 else if e =? 98 then simple 8 else if e =? 102 then simple 12
  else if e =? 110 then simple 10 else if e =? 114 then simple 13 else if e =? 116 then simple 9
  else if e =? 118 then simple 11
  else if (e =? 120) || (e =? 88) then
    match extract_hex 2 s2 with
    | LOk v s3 => lex_bytes f q s3 (v :: acc)
    | LErr l => LErr l
    | LFuel => LFuel
    end
  else if e =? 92 then simple 92 else if e =? 39 then simple 39 else if e =? 34 then simple 34
  else if is_digit e then
    match octal3 e s2 with
    | LOk v s3 => if v <=? 255 then lex_bytes f q s3 (v :: acc) else LErr (sc_loc s3)
    | LErr l => LErr l
    | LFuel => LFuel
    end
  else lex_bytes f q s2 (rev (utf8_encode_char e) ++ acc).
Proof.
  intros Hs Hq. destruct (sc_next_cons s 92 _ Hs) as [E1 E2]. cbn [lex_bytes].
  rewrite E1, (proj2 (Z.eqb_neq 92 q)) by congruence. change (92 =? 92) with true. cbv iota.
  rewrite (proj1 (sc_next_cons _ e r E2)). reflexivity.
Qed.

Lemma lex_bytes_esc_digit f q s e r acc : sc_rest s = 92 :: e :: r -> q <> 92 -> is_digit e = true ->
  lex_bytes (S f) q s acc =
  match octal3 e (advance s [92; e]) with
  | LOk v s3 => if v <=? 255 then lex_bytes f q s3 (v :: acc) else LErr (sc_loc s3)
  | LErr l => LErr l
  | LFuel => LFuel
  end.
Proof.
  intros Hs Hq Hd. rewrite (lex_bytes_esc f q s e r acc Hs Hq). apply digit_cases in Hd.
  repeat destruct Hd as [->|Hd]; try subst e; reflexivity.
Qed.

Lemma lex_bytes_item q bs sp : bspells q bs sp -> q <> 92 ->
  forall fuel s tail acc,
    sc_rest s = sp ++ tail ->
    lex_bytes (S fuel) q s acc = lex_bytes fuel q (advance s sp) (rev bs ++ acc).
Proof.
  intros Hsp Hq92 fuel s tail acc Hs.
  destruct Hsp as [c Hq Hb|e b He|e He|x h1 h2 Hx H1 H2|a b c Ha Hb Hc]; cbn [app] in Hs.
  - cbn [lex_bytes]. rewrite (proj1 (sc_next_cons s c tail Hs)), (proj2 (Z.eqb_neq c q) Hq), (proj2 (Z.eqb_neq c 92) Hb).
    reflexivity.
  - rewrite (lex_bytes_esc _ _ s e tail _ Hs Hq92). apply simple_escape_inv in He. cbn [In] in He.
    repeat destruct He as [[= <- <-]|He]; try contradiction; reflexivity.
  - rewrite (lex_bytes_esc _ _ s e tail _ Hs Hq92). cbv zeta. unfold plain_escape_b in He. all_false He. reflexivity.
  - rewrite (lex_bytes_esc _ _ s x _ _ Hs Hq92). cbv beta zeta.
    rewrite (extract_hex2 _ h1 h2 tail (advance_rest [92; x] s _ Hs) H1 H2).
    destruct Hx; subst x; reflexivity.
  - rewrite (lex_bytes_esc_digit _ _ s (48 + a) _ _ Hs Hq92 (is_digit_oct a ltac:(lia))).
    rewrite (octal3_run a b c _ tail ltac:(lia) Hb Hc (advance_rest [92; 48 + a] s _ Hs)).
    rewrite (proj2 (Z.leb_le _ 255)) by lia. reflexivity.
Qed.

Definition btext_of (items : list (bytes * chars)) : chars := flat_map snd items.
Definition bytes_of_items (items : list (bytes * chars)) : bytes := flat_map fst items.

(** A bytes literal denotes exactly the bytes it spells. *)
Theorem lex_bytes_denotes q : q <> 92 -> forall items fuel s tail acc,
  Forall (fun it => bspells q (fst it) (snd it)) items ->
  sc_rest s = btext_of items ++ q :: tail -> (length items < fuel)%nat ->
  lex_bytes fuel q s acc = LOk (TByteStringLit (rev acc ++ bytes_of_items items)) (advance s (btext_of items ++ [q])).
Proof.
  intros Hq. induction items as [|[bs sp] r IH]; intros fuel s tail acc Hsp Hs Hf;
    (destruct fuel as [|f]; [cbn in Hf; lia|]); cbn [btext_of bytes_of_items flat_map fst snd app] in *.
  - cbn [lex_bytes]. rewrite (proj1 (sc_next_cons s q tail Hs)), Z.eqb_refl, app_nil_r. reflexivity.
  - rewrite <- app_assoc in Hs. rewrite (lex_bytes_item q bs sp (Forall_inv Hsp) Hq f s _ acc Hs).
    rewrite (IH f _ tail (rev bs ++ acc) (Forall_inv_tail Hsp) (advance_rest sp s _ Hs)) by (cbn [length] in Hf; lia).
    rewrite rev_app_distr, rev_involutive, <- !app_assoc, (advance_app s sp). reflexivity.
Qed.

(** An octal escape above \377 is rejected in a bytes literal. *)
Theorem lex_bytes_octal_out_of_range q a b c fuel s tail acc : q <> 92 ->
  4 <= a <= 7 -> 0 <= b <= 7 -> 0 <= c <= 7 ->
  sc_rest s = 92 :: (48 + a) :: (48 + b) :: (48 + c) :: tail ->
  lex_bytes (S fuel) q s acc = LErr (sc_loc (advance s [92; 48 + a; 48 + b; 48 + c])).
Proof.
  intros Hq92 Ha Hb Hc Hs.
  rewrite (lex_bytes_esc_digit _ _ s (48 + a) _ _ Hs Hq92 (is_digit_oct a ltac:(lia))).
  rewrite (octal3_run a b c _ tail ltac:(lia) Hb Hc (advance_rest [92; 48 + a] s _ Hs)).
  rewrite (proj2 (Z.leb_gt _ 255)) by lia. reflexivity.
Qed.

(** A \u or \U escape whose code point is not a Unicode scalar value is rejected. *)
Theorem lex_string_bad_code_point q hs u fuel s tail work : q <> 92 ->
  (u = 117 /\ length hs = 4%nat \/ u = 85 /\ length hs = 8%nat) ->
  Forall (fun h => is_hex h = true) hs -> is_scalar (hex_value hs) = false ->
  sc_rest s = 92 :: u :: hs ++ tail ->
  lex_string (S fuel) q false false s work [] = LErr (sc_loc (advance s (92 :: u :: hs))).
Proof.
  intros Hq92 Hu Hh Hsc Hs. rewrite (lex_string_esc _ _ _ s u _ _ _ Hs Hq92).
  pose proof (extract_hex_run hs _ tail (advance_rest [92; u] s _ Hs) Hh) as EH. rewrite Hsc, <- advance_app in EH.
  destruct Hu as [[-> Hl]|[-> Hl]]; rewrite Hl in EH; cbv beta iota zeta; cbn [Z.eqb Pos.eqb]; rewrite EH; reflexivity.
Qed.
