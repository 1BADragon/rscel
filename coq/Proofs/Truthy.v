(* Proofs/Truthy.v — C05: one truthiness, and the absorption rules of || and &&. *)
From Coq Require Import ZArith List Bool Lia.
From Coq Require Import Floats.SpecFloat.
From Rscel Require Import Base.Prims Base.F64 Base.Text Model.Value Model.Ops Model.Dispatch Model.Funcs.
Import ListNotations.
Import Coq.Strings.String.StringSyntax.
Open Scope Z_scope.

(** The truthiness table of the statement. *)
Theorem truthy_table : forall v,
  is_truthy v =
  match v with
  | VInt i => negb (i =? 0) | VUInt u => negb (u =? 0)
  | VFloat f => match f with S754_zero _ => false | _ => true end
  | VBool b => b
  | VString s => match s with [] => false | _ => true end
  | VBytes s => match s with [] => false | _ => true end
  | VList l => match l with [] => false | _ => true end
  | VMap m => match m with [] => false | _ => true end
  | VType _ | VTime _ | VDur _ => true
  | VNull | VErr _ | VIdent _ | VCode _ => false
  end.
Proof.
  assert (L : forall A (x : A) (r : list A), negb (zlen (x :: r) =? 0) = true).
  { intros A x r. unfold zlen. cbn [length]. destruct (Z.eqb_spec (Z.of_nat (S (length r))) 0); [lia|reflexivity]. }
  intros v. destruct v; try reflexivity.
  - destruct f; reflexivity.
  - destruct s; [reflexivity|]. apply L.
  - destruct s; [reflexivity|]. apply L.
  - destruct l; [reflexivity|]. apply L.
  - destruct m; [reflexivity|]. apply L.
Qed.

Definition truthy_ok (v : value) : bool := negb (is_err v) && is_truthy v.

(** || yields true when either side is truthy even if the other side fails;
    otherwise a failing operand makes the result fail (left one first). *)
Theorem or_spec : forall a b,
  or_ a b =
  if truthy_ok a || truthy_ok b then VBool true
  else if is_err a then a else if is_err b then b else VBool false.
Proof.
  intros a b. unfold or_, truthy_ok.
  destruct (is_err a) eqn:Ea, (is_err b) eqn:Eb; cbn [negb andb orb].
  - assert (is_truthy b = false) by (destruct b; try discriminate; reflexivity). rewrite H. reflexivity.
  - destruct (is_truthy b); reflexivity.
  - rewrite orb_false_r. destruct (is_truthy a); reflexivity.
  - destruct (is_truthy a), (is_truthy b); reflexivity.
Qed.

(** && fails when an operand fails (left one first), otherwise it is the conjunction of the truthiness. *)
Theorem and_spec : forall a b,
  and_ a b = if is_err a then a else if is_err b then b else VBool (is_truthy a && is_truthy b).
Proof. intros. reflexivity. Qed.

(** ! uses the same truthiness. *)
Theorem not_spec : forall a, not_ a = if is_err a then a else VBool (negb (is_truthy a)).
Proof. intros. reflexivity. Qed.

(** bool(): the same truthiness, outside the recorded finding (the five spellings of false). *)
Definition false_spelling (v : value) : bool :=
  match v with VString s => match parse_bool_literal s with Some false => true | _ => false end | _ => false end.

Lemma parse_bool_true_nonempty s : parse_bool_literal s = Some true -> is_truthy (VString s) = true.
Proof. destruct s; [discriminate|reflexivity]. Qed.

Theorem bool_is_truthy_outside_known : forall now v,
  is_err v = false -> false_spelling v = false ->
  construct_type now #"bool" [v] = ROk (VBool (is_truthy v)).
Proof.
  intros now v He Hk. destruct v; try discriminate He; try reflexivity.
  cbn in Hk.
  assert (Hc : construct_type now #"bool" [VString s] =
               match parse_bool_literal s with
               | Some b => ROk (VBool b)
               | None => ROk (VBool (negb (zlen s =? 0)))
               end) by reflexivity.
  rewrite Hc.
  destruct (parse_bool_literal s) as [[|]|] eqn:P; try discriminate Hk.
  - rewrite (parse_bool_true_nonempty s P). reflexivity.
  - reflexivity.
Qed.

Theorem bool_truthy_refuted : exists now v,
  is_err v = false /\ construct_type now #"bool" [v] <> ROk (VBool (is_truthy v)).
Proof. exists None, (VString #"0"). split; [reflexivity|]. vm_compute. discriminate. Qed.
