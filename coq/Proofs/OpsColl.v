(* Proofs/OpsColl.v — C06: indexing (incl. negative), membership, substring,
   size, and map literals where the last entry of a repeated key wins.  The facts about sorted
   association lists ([smap], [keys_above], [map_insert], [map_get]) that the other proof files use are
   here too, with the MkList / MkDict instructions. *)
From Coq Require Import ZArith List Bool Lia.
From Rscel Require Import Base.Prims Base.F64 Base.Text Model.Value Model.Ops Model.Dispatch Model.Funcs
     Model.Interp Model.Compile Spec.Wf.
From Rscel Require Import Proofs.OpsArith Proofs.OpsOrder Proofs.Strings.
Import ListNotations.
Import Coq.Strings.String.StringSyntax.
Open Scope Z_scope.

Lemma znth_spec {A} : forall (l : list A) i,
  znth l i = if (0 <=? i) && (i <? zlen l) then nth_error l (Z.to_nat i) else None.
Proof.
  induction l as [|x l IH]; intros i; cbn [znth].
  - unfold zlen; cbn. destruct (0 <=? i) eqn:HA; cbn; [|reflexivity].
    destruct (i <? 0) eqn:HB; [|reflexivity]. apply Z.leb_le in HA. apply Z.ltb_lt in HB. lia.
  - unfold zlen in *. cbn [length]. rewrite Nat2Z.inj_succ.
    destruct (Z.eqb_spec i 0) as [->|Hn].
    + cbn. destruct (Z.ltb_spec 0 (Z.succ (Z.of_nat (length l)))); [reflexivity|lia].
    + destruct (Z.ltb_spec i 0) as [Hneg|Hpos].
      * destruct (Z.leb_spec 0 i); [lia|reflexivity].
      * rewrite IH. destruct (Z.leb_spec 0 i); [|lia].
        destruct (Z.leb_spec 0 (i - 1)); [|lia]. cbn [andb].
        destruct (Z.ltb_spec (i - 1) (Z.of_nat (length l))), (Z.ltb_spec i (Z.succ (Z.of_nat (length l)))); try lia;
          [|reflexivity].
        replace (Z.to_nat i) with (S (Z.to_nat (i - 1))) by lia. reflexivity.
Qed.

(** l[i]: the i-th element for 0 <= i < size, the (size+i)-th for
    -size <= i < 0, an error outside that range. *)
Theorem index_list_int : forall l i,
  let j := if i <? 0 then zlen l + i else i in
  index (VList l) (VInt i) =
    if (0 <=? j) && (j <? zlen l)
    then match nth_error l (Z.to_nat j) with Some v => v | None => VErr EValue end
    else VErr EValue.
Proof.
  intros l i j. unfold index, error_prop_or. cbn [is_err]. fold j.
  rewrite znth_spec.
  destruct (Z.ltb_spec j 0) as [Hn|Hp].
  - destruct (Z.leb_spec 0 j); [lia|reflexivity].
  - destruct (Z.leb_spec 0 j); [|lia]. cbn [andb]. destruct (j <? zlen l); reflexivity.
Qed.

Theorem index_list_uint : forall l i,
  index (VList l) (VUInt i) =
    if (0 <=? i) && (i <? zlen l)
    then match nth_error l (Z.to_nat i) with Some v => v | None => VErr EValue end
    else VErr EValue.
Proof.
  intros l i. unfold index, error_prop_or. cbn [is_err]. rewrite znth_spec.
  destruct ((0 <=? i) && (i <? zlen l)); reflexivity.
Qed.

(** The element exists whenever the index is in range (no silent default). *)
Lemma nth_error_in_range {A} (l : list A) j : 0 <= j < zlen l -> exists v, nth_error l (Z.to_nat j) = Some v.
Proof.
  intros H. unfold zlen in H. destruct (nth_error l (Z.to_nat j)) eqn:E; [eauto|].
  apply nth_error_None in E. lia.
Qed.

Theorem index_list_other_is_error : forall l k,
  match k with VInt _ | VUInt _ | VErr _ => True | _ => index (VList l) k = VErr EValue end.
Proof. intros l k. destruct k; try exact I; reflexivity. Qed.

(** m[k] and m.k: the stored value or an absent-field error; other key types are errors. *)
Theorem index_map : forall m k,
  index (VMap m) (VString k) = match map_get m k with Some v => v | None => VErr (EAttribute k) end /\
  access (VMap m) k = match map_get m k with Some v => v | None => VErr (EAttribute k) end.
Proof. intros; split; reflexivity. Qed.

Theorem index_map_other_is_error : forall m k,
  match k with VString _ | VErr _ => True | _ => index (VMap m) k = VErr EValue end.
Proof. intros m k. destruct k; try exact I; reflexivity. Qed.

Theorem index_non_collection_is_error : forall o k,
  is_err o = false -> is_err k = false ->
  match o with VList _ | VMap _ => True | _ => index o k = VErr EValue end.
Proof. intros o k Ho Hk. destruct o; try exact I; unfold index, error_prop_or; rewrite ?Ho, Hk; try reflexivity; discriminate Ho. Qed.

(** [in]: list membership (structural equality), key presence, substring ([Strings.contains_spec]);
    an error otherwise. *)
Theorem in_spec : forall a b, is_err a = false -> is_err b = false ->
  in_ a b =
    match b with
    | VList l => VBool (existsb (fun v => peq a v) l)
    | VMap m => match a with
                | VString k => VBool (match map_get m k with Some _ => true | None => false end)
                | _ => VErr EInvalidOp end
    | VString s => match a with VString n => VBool (contains n s) | _ => VErr EInvalidOp end
    | _ => VErr EInvalidOp
    end.
Proof. intros a b Ha Hb. apply error_prop_or_ok; assumption. Qed.

(** size: the element count (UTF-8 byte length for strings), in function and method form. *)
Theorem size_spec : forall now s l,
  call_default now #"size" VNull [VString s] = Some (ROk (VUInt (zlen s))) /\
  call_default now #"size" (VString s) [] = Some (ROk (VUInt (zlen s))) /\
  call_default now #"size" VNull [VBytes s] = Some (ROk (VUInt (zlen s))) /\
  call_default now #"size" (VBytes s) [] = Some (ROk (VUInt (zlen s))) /\
  call_default now #"size" VNull [VList l] = Some (ROk (VUInt (zlen l))) /\
  call_default now #"size" (VList l) [] = Some (ROk (VUInt (zlen l))).
Proof. intros. repeat split; reflexivity. Qed.

Lemma bytes_eqb_false_of_cmp a b : bytes_cmp a b <> Eq -> bytes_eqb a b = false.
Proof. intros H. rewrite bytes_eqb_cmp. destruct (bytes_cmp a b); congruence. Qed.

(** Sorted association lists.  [keys_above k m]: every key of [m] lies above [k];
    [smap m]: the keys are strictly increasing, so each occurs once. *)
Fixpoint keys_above {A} (k : bytes) (m : list (bytes * A)) : Prop :=
  match m with [] => True | (k', _) :: r => bytes_cmp k k' = Lt /\ keys_above k r end.

Fixpoint smap {A} (m : list (bytes * A)) : Prop :=
  match m with [] => True | (k, _) :: r => keys_above k r /\ smap r end.

Lemma keys_above_Forall {A} k (m : list (bytes * A)) :
  keys_above k m <-> Forall (fun kv => bytes_cmp k (fst kv) = Lt) m.
Proof.
  induction m as [|[k' v] m IH]; cbn [keys_above]; [split; constructor|]. rewrite IH. split.
  - intros [H1 H2]. constructor; assumption.
  - intros H. inversion H. auto.
Qed.

Lemma keys_above_trans {A} k k' (m : list (bytes * A)) : bytes_cmp k k' = Lt -> keys_above k' m -> keys_above k m.
Proof.
  rewrite !keys_above_Forall. intros H. apply Forall_impl. intros kv. apply bytes_cmp_lt_trans. exact H.
Qed.

Lemma keys_above_in {A} k (m : list (bytes * A)) k' x : keys_above k m -> In (k', x) m -> bytes_cmp k k' = Lt.
Proof. rewrite keys_above_Forall, Forall_forall. intros H Hin. exact (H _ Hin). Qed.

Lemma keys_above_map {A B} (f : A -> B) k (m : list (bytes * A)) :
  keys_above k (map (fun kv => (fst kv, f (snd kv))) m) <-> keys_above k m.
Proof. rewrite !keys_above_Forall, Forall_map. reflexivity. Qed.

Lemma smap_map {A B} (f : A -> B) (m : list (bytes * A)) : smap m -> smap (map (fun kv => (fst kv, f (snd kv))) m).
Proof.
  induction m as [|[k v] m IH]; cbn [map smap fst snd]; [auto|]. intros [H1 H2]. split; [apply keys_above_map; exact H1|auto].
Qed.

Lemma keys_sorted_above {A} k (m : list (bytes * A)) :
  keys_sorted (k :: map fst m) = true -> keys_above k m /\ keys_sorted (map fst m) = true.
Proof.
  revert k. induction m as [|[k2 v2] m IH]; intros k; cbn [map fst keys_sorted keys_above]; [auto|].
  destruct (bytes_cmp k k2) eqn:C; try discriminate. intros H. split; [|exact H]. split; [reflexivity|].
  destruct (IH k2 H) as [Ha _]. eapply keys_above_trans; eauto.
Qed.

Lemma keys_sorted_smap {A} (m : list (bytes * A)) : keys_sorted (map fst m) = true -> smap m.
Proof.
  induction m as [|[k v] m IH]; [intros; exact I|]. intros H.
  destruct (keys_sorted_above k m H) as [Ha Hs]. split; [exact Ha|apply IH; exact Hs].
Qed.

Lemma map_get_above {A} k (m : list (bytes * A)) : keys_above k m -> map_get m k = None.
Proof.
  induction m as [|[k2 v2] m IH]; cbn; [auto|]. intros [H1 H2].
  rewrite bytes_eqb_false_of_cmp by congruence. auto.
Qed.

Lemma map_get_in {A} (m : list (bytes * A)) k x : map_get m k = Some x -> In (k, x) m.
Proof.
  induction m as [|[k' v] m IH]; cbn; [discriminate|]. destruct (bytes_eqb k k') eqn:E.
  - apply bytes_eqb_eq in E. subst. intros [= <-]. left. reflexivity.
  - intros H. right. auto.
Qed.

Lemma in_map_get {A} (m : list (bytes * A)) k x : smap m -> In (k, x) m -> map_get m k = Some x.
Proof.
  induction m as [|[k' v] m IH]; cbn; [tauto|]. intros [Ha Hs] [E|Hin].
  - injection E as <- <-. rewrite bytes_eqb_refl. reflexivity.
  - pose proof (keys_above_in k' m k x Ha Hin) as C.
    rewrite bytes_eqb_false_of_cmp; [auto|]. rewrite bytes_cmp_antisym, C. discriminate.
Qed.

Lemma smap_nodup {A} (m : list (bytes * A)) : smap m -> NoDup (map fst m).
Proof.
  induction m as [|[k v] m IH]; cbn; [constructor|]. intros [Ha Hs]. constructor; [|auto].
  intros Hin. apply in_map_iff in Hin. destruct Hin as ([k' x] & E & Hin). cbn in E. subst k'.
  pose proof (keys_above_in k m k x Ha Hin) as C. rewrite bytes_cmp_refl in C. discriminate C.
Qed.

Lemma map_insert_above {A} k0 k (v : A) m : bytes_cmp k0 k = Lt -> keys_above k0 m -> keys_above k0 (map_insert m k v).
Proof.
  induction m as [|[k2 v2] m IH]; cbn; intros H Ha.
  - auto.
  - destruct Ha as [H1 H2]. destruct (bytes_cmp k k2) eqn:C; cbn; auto.
Qed.

Lemma map_insert_sorted {A} k (v : A) m : smap m -> smap (map_insert m k v).
Proof.
  induction m as [|[k2 v2] m IH]; cbn; intros Hs; [auto|].
  destruct Hs as [Ha Hs]. destruct (bytes_cmp k k2) eqn:C; cbn.
  - apply bytes_cmp_eq in C. subst. auto.
  - split; [split; [assumption|eapply keys_above_trans; eauto]|auto].
  - split; [|auto]. apply map_insert_above; [|assumption]. rewrite bytes_cmp_antisym, C. reflexivity.
Qed.

Lemma map_get_insert {A} k (v : A) m k' : smap m ->
  map_get (map_insert m k v) k' = if bytes_eqb k' k then Some v else map_get m k'.
Proof.
  induction m as [|[k2 v2] m IH]; cbn; intros Hs.
  - destruct (bytes_eqb k' k); reflexivity.
  - destruct Hs as [Ha Hs]. destruct (bytes_cmp k k2) eqn:C; cbn.
    + apply bytes_cmp_eq in C. subst. destruct (bytes_eqb k' k2); reflexivity.
    + destruct (bytes_eqb k' k); reflexivity.
    + destruct (bytes_eqb k' k2) eqn:E2.
      * apply bytes_eqb_eq in E2. subst.
        rewrite bytes_eqb_false_of_cmp; [reflexivity|]. rewrite bytes_cmp_antisym, C. discriminate.
      * apply IH. assumption.
Qed.

Lemma map_insert_first {A} k (v : A) m : keys_above k m -> map_insert m k v = (k, v) :: m.
Proof. destruct m as [|[k' v'] m]; cbn; [reflexivity|]. intros [H _]. rewrite H. reflexivity. Qed.

Lemma map_insert_last {A} (m : list (bytes * A)) k v :
  Forall (fun kv => bytes_cmp (fst kv) k = Lt) m -> map_insert m k v = m ++ [(k, v)].
Proof.
  induction 1 as [|[k' v'] m H _ IH]; cbn; [reflexivity|]. cbn in H.
  rewrite bytes_cmp_antisym, H. cbn. rewrite IH. reflexivity.
Qed.

Lemma insert_all_sorted {A} : forall (m acc : list (bytes * A)), smap (acc ++ m) ->
  fold_left (fun a kv => map_insert a (fst kv) (snd kv)) m acc = acc ++ m.
Proof.
  induction m as [|[k v] m IH]; intros acc Hs; cbn [fold_left fst snd]; [rewrite app_nil_r; reflexivity|].
  rewrite (map_insert_last acc k v).
  - rewrite IH; rewrite <- app_assoc; [reflexivity|exact Hs].
  - clear IH. induction acc as [|[k' v'] acc IH]; [constructor|]. destruct Hs as [Ha Hs]. constructor; [|auto].
    apply (keys_above_in k' (acc ++ (k, v) :: m) k v Ha). apply in_or_app. right. left. reflexivity.
Qed.

Lemma forall_insert {A} (P : bytes * A -> Prop) m k v : Forall P m -> P (k, v) -> Forall P (map_insert m k v).
Proof.
  induction m as [|[k' v'] m IH]; cbn; intros Hm Hp; [auto|]. inversion Hm; subst.
  destruct (bytes_cmp k k'); auto.
Qed.

Lemma map_insert_map {A B} (f : A -> B) (m : list (bytes * A)) k v :
  map_insert (map (fun kv => (fst kv, f (snd kv))) m) k (f v) = map (fun kv => (fst kv, f (snd kv))) (map_insert m k v).
Proof.
  induction m as [|[k' v'] m IH]; cbn; [reflexivity|].
  destruct (bytes_cmp k k'); cbn; [reflexivity|reflexivity|]. rewrite IH. reflexivity.
Qed.

(** The value a key has in a literal: the one of its last entry. *)
Fixpoint last_entry (pairs : list (bytes * value)) (k : bytes) (acc : option value) : option value :=
  match pairs with
  | [] => acc
  | (k', v) :: r => last_entry r k (if bytes_eqb k k' then Some v else acc)
  end.

Definition build_map (pairs : list (bytes * value)) : list (bytes * value) :=
  fold_left (fun m kv => map_insert m (fst kv) (snd kv)) pairs [].

Lemma build_map_acc pairs : forall m k, smap m ->
  smap (fold_left (fun m kv => map_insert m (fst kv) (snd kv)) pairs m) /\
  map_get (fold_left (fun m kv => map_insert m (fst kv) (snd kv)) pairs m) k = last_entry pairs k (map_get m k).
Proof.
  induction pairs as [|[k1 v1] r IH]; intros m k Hs; cbn.
  - auto.
  - destruct (IH (map_insert m k1 v1) k (map_insert_sorted k1 v1 m Hs)) as [A B].
    split; [assumption|]. rewrite B, map_get_insert by assumption. reflexivity.
Qed.

(** For a repeated key the last entry wins; the result is sorted (canonical). *)
Theorem map_literal_last_wins : forall pairs k,
  map_get (build_map pairs) k = last_entry pairs k None /\ smap (build_map pairs).
Proof.
  intros pairs k. destruct (build_map_acc pairs [] k I) as [A B]. split; assumption.
Qed.

(** The compiler's constant folding of a map literal computes the same map as
    the VM's MkDict ([build_map] of the entries in source order). *)
Fixpoint interleave (pairs : list (bytes * value)) : list value :=
  match pairs with [] => [] | (k, v) :: r => v :: VString k :: interleave r end.

Theorem const_map_is_build_map : forall pairs acc,
  const_map (interleave pairs) acc = VMap (fold_left (fun m kv => map_insert m (fst kv) (snd kv)) pairs acc).
Proof.
  induction pairs as [|[k v] r IH]; intros acc; cbn; [reflexivity|]. apply IH.
Qed.

Definition not_ident (v : value) : Prop := match v with VIdent _ => False | _ => True end.

Lemma pop_val_plain rs E d v st lg : not_ident v -> pop_val rs E d (SVal v :: st) lg = (ROk (v, st), lg).
Proof. intros H. destruct v; try reflexivity. destruct H. Qed.

Lemma pop_n_vals rs E d : forall vs st lg,
  Forall not_ident vs -> pop_n rs E d (length vs) (map SVal vs ++ st) lg = (ROk (vs, st), lg).
Proof.
  induction vs as [|v vs IH]; intros st lg Hf; [reflexivity|].
  inversion Hf as [|? ? Hv Hr]; subst. cbn [length pop_n map app].
  unfold mbind. rewrite pop_val_plain by assumption. rewrite IH by assumption. reflexivity.
Qed.

(** MkList: the list holds exactly the values pushed, in push (= source) order. *)
Theorem mklist_spec : forall rs E d vs st lg,
  Forall not_ident vs ->
  step rs E d (IMkList (zlen vs)) (map SVal (rev vs) ++ st) lg = (ROk (None, SVal (VList vs) :: st), lg).
Proof.
  intros rs E d vs st lg Hf. cbn [step]. unfold zlen. rewrite Nat2Z.id.
  unfold mbind. rewrite <- (rev_length vs).
  rewrite pop_n_vals by (apply Forall_rev; assumption).
  unfold mret, push. rewrite rev_involutive. reflexivity.
Qed.

(** MkDict: stack (top first) kn, vn, ..., k1, v1 for the entries (k1,v1)..(kn,vn)
    in source order; the result is [build_map] of the entries: last entry wins. *)
Fixpoint dict_stack (pairs_rev : list (bytes * value)) : stack :=
  match pairs_rev with
  | [] => []
  | (k, v) :: r => SVal (VString k) :: SVal v :: dict_stack r
  end.

(** the same stack with arbitrary key values *)
Fixpoint dict_stack_v (pairs_rev : list (value * value)) : stack :=
  match pairs_rev with
  | [] => []
  | (k, v) :: r => SVal k :: SVal v :: dict_stack_v r
  end.
Definition is_str (v : value) : bool := match v with VString _ => true | _ => false end.
Definition str_entries (prs : list (value * value)) : list (bytes * value) :=
  flat_map (fun kv => match fst kv with VString s => [(s, snd kv)] | _ => [] end) prs.

Lemma mkdict_general rs E d st : forall prs acc bad lg,
  Forall (fun kv => not_ident (fst kv) /\ not_ident (snd kv)) prs ->
  (fix go (k : nat) (st0 : stack) (acc0 : list (bytes * value)) (bad0 : bool) {struct k} : M (option Z * stack) :=
     match k with
     | O => if bad0 then mret (None, push (VErr EValue) st0)
            else mret (None, push (VMap (fold_left (fun m kv => map_insert m (fst kv) (snd kv)) acc0 [])) st0)
     | S k' =>
         mbind (pop_val rs E d st0) (fun rk => let '(key, st1) := rk in
         mbind (pop_val rs E d st1) (fun rv => let '(v, st2) := rv in
         match key with
         | VString s => go k' st2 ((s, v) :: acc0) bad0
         | _ => go k' st2 acc0 true
         end))
     end) (length prs) (dict_stack_v prs ++ st) acc bad lg =
  (ROk (None, SVal (if bad || negb (forallb is_str (map fst prs)) then VErr EValue
                    else VMap (fold_left (fun m kv => map_insert m (fst kv) (snd kv)) (rev (str_entries prs) ++ acc) [])) :: st), lg).
Proof.
  induction prs as [|[k v] prs IH]; intros acc bad lg Hp.
  - cbn. rewrite orb_false_r. destruct bad; reflexivity.
  - inversion Hp as [|? ? [Hk Hv] Hr]; subst. cbn [length dict_stack_v app fst snd] in *.
    unfold mbind at 1. rewrite pop_val_plain by exact Hk.
    unfold mbind at 1. rewrite pop_val_plain by exact Hv.
    destruct k; rewrite IH by assumption; cbn [map fst forallb is_str andb negb orb str_entries flat_map app rev];
      rewrite ?orb_true_r, ?orb_true_l; try reflexivity.
    fold (str_entries prs). cbn [snd]. rewrite <- app_assoc. reflexivity.
Qed.

Fixpoint interleave_v (prs : list (value * value)) : list value :=
  match prs with [] => [] | (k, v) :: r => v :: k :: interleave_v r end.

Lemma const_map_v : forall prs acc,
  const_map (interleave_v prs) acc =
  if forallb is_str (map fst prs) then VMap (fold_left (fun m kv => map_insert m (fst kv) (snd kv)) (str_entries prs) acc)
  else VErr EValue.
Proof.
  induction prs as [|[k v] r IH]; intros acc; [reflexivity|].
  cbn [interleave_v map fst forallb]. destruct k; cbn [const_map is_str andb]; try reflexivity.
  rewrite IH. cbn [str_entries flat_map fst snd app]. fold (str_entries r). reflexivity.
Qed.

Lemma str_entries_app a b : str_entries (a ++ b) = str_entries a ++ str_entries b.
Proof. unfold str_entries. apply flat_map_app. Qed.

Lemma str_entries_rev prs : str_entries (rev prs) = rev (str_entries prs).
Proof.
  induction prs as [|[k v] r IH]; [reflexivity|]. cbn [rev]. rewrite str_entries_app, IH.
  cbn [str_entries flat_map fst snd]. destruct k; cbn [app rev]; rewrite ?app_nil_r; try reflexivity.
Qed.

Lemma forallb_rev {A} (f : A -> bool) l : forallb f (rev l) = forallb f l.
Proof.
  induction l as [|x l IH]; [reflexivity|]. cbn [rev forallb]. rewrite forallb_app, IH. cbn. rewrite andb_true_r. apply andb_comm.
Qed.

(** Map literals, any keys: the VM's MkDict leaves exactly the value the
    compiler's folder computes for the same entries: the same map (the last
    entry of a repeated key wins) or, when some key is not a string, the same
    error value. *)
Theorem mkdict_equals_folder : forall rs E d prs st lg,
  Forall (fun kv => not_ident (fst kv) /\ not_ident (snd kv)) prs ->
  step rs E d (IMkDict (zlen prs)) (dict_stack_v (rev prs) ++ st) lg =
    (ROk (None, SVal (const_map (interleave_v prs) []) :: st), lg).
Proof.
  intros rs E d prs st lg Hf. cbn [step]. unfold zlen. rewrite Nat2Z.id. rewrite <- (rev_length prs).
  rewrite mkdict_general by (apply Forall_rev; exact Hf).
  rewrite const_map_v. cbn [orb]. rewrite map_rev, forallb_rev.
  destruct (forallb is_str (map fst prs)); cbn [negb]; [|reflexivity].
  rewrite str_entries_rev, rev_involutive, app_nil_r. reflexivity.
Qed.

(** String keys: the stack and the folder's input are those of the general case. *)
Definition str_key (kv : bytes * value) : value * value := (VString (fst kv), snd kv).

Lemma dict_stack_as_v prs : dict_stack prs = dict_stack_v (map str_key prs).
Proof. induction prs as [|[k v] r IH]; [reflexivity|]. cbn. rewrite IH. reflexivity. Qed.

Lemma interleave_as_v prs : interleave prs = interleave_v (map str_key prs).
Proof. induction prs as [|[k v] r IH]; [reflexivity|]. cbn. rewrite IH. reflexivity. Qed.

Theorem mkdict_spec : forall rs E d pairs st lg,
  Forall (fun kv => not_ident (snd kv)) pairs ->
  step rs E d (IMkDict (zlen pairs)) (dict_stack (rev pairs) ++ st) lg =
    (ROk (None, SVal (VMap (build_map pairs)) :: st), lg).
Proof.
  intros rs E d pairs st lg Hf. unfold build_map.
  rewrite <- const_map_is_build_map, interleave_as_v, dict_stack_as_v, map_rev.
  replace (zlen pairs) with (zlen (map str_key pairs)) by (unfold zlen; rewrite map_length; reflexivity).
  apply mkdict_equals_folder. apply Forall_map. eapply Forall_impl; [|exact Hf]. intros kv H. split; [exact I|exact H].
Qed.

(** A key that is not a string makes the whole literal an error *value* (every
    entry is still taken off the stack): the VM agrees with the compiler's folding. *)
Theorem mkdict_bad_key : forall rs E d prs st lg,
  Forall (fun kv => not_ident (fst kv) /\ not_ident (snd kv)) prs ->
  forallb is_str (map fst prs) = false ->
  step rs E d (IMkDict (zlen prs)) (dict_stack_v prs ++ st) lg = (ROk (None, SVal (VErr EValue) :: st), lg).
Proof.
  intros rs E d prs st lg Hf Hb. cbn [step]. unfold zlen. rewrite Nat2Z.id.
  rewrite mkdict_general by assumption. rewrite Hb. reflexivity.
Qed.
