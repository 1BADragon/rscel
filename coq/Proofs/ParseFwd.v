(* Proofs/ParseFwd.v — C18: the parser only ever moves its scanner forward, so the position a parse reaches
   is a position of the source text; with Proofs/ParseBounds.v every span of the tree lies inside the source. *)
From Coq Require Import ZArith List Bool Lia.
From Rscel Require Import Base.Prims Base.F64 Base.Text Model.Value Model.Funcs Model.Lexer Model.Ast Model.Parser
     Proofs.Spans Proofs.LexFwd Proofs.ParseCases Proofs.ParseBounds.
Import ListNotations.
Open Scope Z_scope.

Definition sfw (t t' : tokenizer) : Prop := fwd (tz_scan t) (tz_scan t').
Definition pfw {A} (m : P A) : Prop := forall t a t', m t = POk a t' -> sfw t t'.

Lemma sfw_refl t : sfw t t. Proof. apply fwd_refl. Qed.
Lemma pfw_ret {A} (a : A) : pfw (pret a). Proof. intros t a0 t' E. injection E as _ <-. apply sfw_refl. Qed.
Lemma pfw_fail_here {A} : pfw (@fail_here A). Proof. intros t a t' E. discriminate. Qed.
Lemma pfw_fail_at {A} l : pfw (@fail_at A l). Proof. intros t a t' E. discriminate. Qed.
Lemma pfw_fuel {A} : pfw (fun _ : tokenizer => @PFuel A). Proof. intros t a t' E. discriminate. Qed.
Lemma pfw_bind {A B} (m : P A) (f : A -> P B) : pfw m -> (forall a, pfw (f a)) -> pfw (pbind m f).
Proof.
  intros Hm Hf t b t' E. unfold pbind in E. destruct (m t) as [a t1| |] eqn:M; try discriminate.
  eapply fwd_trans; [eapply Hm; eauto|eapply Hf; eauto].
Qed.
Lemma pfw_at {A} (f : tokenizer -> P A) : (forall t0, pfw (f t0)) -> pfw (fun t => f t t).
Proof. intros H t a t' E. eapply H; eauto. Qed.

Lemma tz_collect_fwd t o s eof : tz_collect t = (LOk o s, eof) -> fwd (tz_scan t) s.
Proof.
  unfold tz_collect. destruct (tz_eof t); [intros H; injection H as _ <- _; apply fwd_refl|].
  destruct (collect_token (tz_scan t)) as [[y|] s1| |] eqn:C; try discriminate; intros H; injection H as _ <- _; eapply collect_token_fwd; eauto.
Qed.
Lemma pfw_peek : pfw peek.
Proof.
  intros t o t' E. unfold peek, tz_peek in E. unfold sfw. destruct (tz_cur t); [injection E as _ <-; apply fwd_refl|].
  destruct (tz_collect t) as [[o1 s| |] eof] eqn:C; try discriminate. injection E as _ <-. cbn [tz_scan]. eapply tz_collect_fwd; eauto.
Qed.
Lemma pfw_next : pfw next.
Proof.
  intros t o t' E. unfold next, tz_next in E. unfold sfw. destruct (tz_cur t); [injection E as _ <-; apply fwd_refl|].
  destruct (tz_collect t) as [[o1 s| |] eof] eqn:C; try discriminate. injection E as _ <-. cbn [tz_scan]. eapply tz_collect_fwd; eauto.
Qed.
Lemma pfw_here : pfw here. Proof. intros t l t' E. injection E as _ <-. apply sfw_refl. Qed.

Lemma pfw_ext {A} (m m' : P A) : (forall t, m t = m' t) -> pfw m' -> pfw m.
Proof. intros E H t a t' R. rewrite E in R. eapply H; eauto. Qed.

(** follows the shape of a parser: [tac] for the parsers it calls, the rules above for the rest; a parser that
    reads its fuel off the state is opened with [pfw_at] before anything else looks at it *)
Ltac pfw_with tac :=
  repeat first
    [ tac | apply pfw_fuel
    | match goal with |- pfw (fun _ => _) => apply pfw_at with (f := fun _ => _); intros ? end
    | (apply pfw_bind; [|intros ?]) | apply pfw_ret | apply pfw_fail_here | apply pfw_fail_at
    | apply pfw_peek | apply pfw_next | apply pfw_here
    | match goal with
      | |- pfw (match ?x with _ => _ end) => destruct x
      | |- pfw (if ?c then _ else _) => destruct c
      end ].

Section Levels.
  Variable rec_expr : P expr.
  Variable rec_src : chars -> pres unit.
  Hypothesis Hrec : pfw rec_expr.

  Lemma lloop_fw {A B O} (opof : token -> option O) (rhs : P B) (mk : A -> O -> B -> A) : pfw rhs ->
    forall n acc, pfw (lloop n opof rhs mk acc).
  Proof. intros Hr. induction n as [|n IH]; intros acc; cbn [lloop]; pfw_with ltac:(first [exact Hr|apply IH]). Qed.
  Lemma p_oplist_fw : forall n k cnt, pfw (p_oplist n k cnt).
  Proof. induction n as [|n IH]; intros k cnt; cbn [p_oplist]; pfw_with ltac:(apply IH). Qed.
  Lemma p_expr_list_fw : forall n ending acc, pfw (p_expr_list rec_expr n ending acc).
  Proof. induction n as [|n IH]; intros ending acc; cbn [p_expr_list]; pfw_with ltac:(first [exact Hrec|apply IH]). Qed.
  Lemma p_obj_inits_fw : forall n acc, pfw (p_obj_inits rec_expr n acc).
  Proof. induction n as [|n IH]; intros acc; cbn [p_obj_inits]; pfw_with ltac:(first [exact Hrec|apply IH]). Qed.
  Lemma check_segments_fw at_ segs : pfw (check_segments rec_src at_ segs).
  Proof. intros t u t' E. apply check_segments_same in E. subst. apply sfw_refl. Qed.
  Lemma p_primary_fw : pfw (p_primary rec_expr rec_src).
  Proof.
    unfold p_primary. pfw_with ltac:(first [exact Hrec|apply p_expr_list_fw|apply p_obj_inits_fw|apply check_segments_fw]).
  Qed.
  Lemma p_member_primes_fw : forall n acc, pfw (p_member_primes rec_expr n acc).
  Proof. induction n as [|n IH]; intros acc; cbn [p_member_primes]; pfw_with ltac:(first [exact Hrec|apply p_expr_list_fw|apply IH]). Qed.
  Lemma p_member_fw : pfw (p_member rec_expr rec_src).
  Proof. unfold p_member. pfw_with ltac:(first [apply p_primary_fw|apply p_member_primes_fw]). Qed.
  Lemma p_unary_fw : pfw (p_unary rec_expr rec_src).
  Proof. unfold p_unary. pfw_with ltac:(first [apply p_oplist_fw|apply p_member_fw]). Qed.
  Lemma p_mult_fw : pfw (p_mult rec_expr rec_src). Proof. unfold p_mult. pfw_with ltac:(first [apply p_unary_fw|apply lloop_fw; apply p_unary_fw]). Qed.
  Lemma p_addn_fw : pfw (p_addn rec_expr rec_src). Proof. unfold p_addn. pfw_with ltac:(first [apply p_mult_fw|apply lloop_fw; apply p_mult_fw]). Qed.
  Lemma p_rel_fw : pfw (p_rel rec_expr rec_src). Proof. unfold p_rel. pfw_with ltac:(first [apply p_addn_fw|apply lloop_fw; apply p_addn_fw]). Qed.
  Lemma p_cand_fw : pfw (p_cand rec_expr rec_src). Proof. unfold p_cand. pfw_with ltac:(first [apply p_rel_fw|apply lloop_fw; apply p_rel_fw]). Qed.
  Lemma p_cor_fw : pfw (p_cor rec_expr rec_src). Proof. unfold p_cor. pfw_with ltac:(first [apply p_cand_fw|apply lloop_fw; apply p_cand_fw]). Qed.
  Lemma p_pattern_fw : pfw (p_pattern rec_expr rec_src).
  Proof.
    eapply pfw_ext; [apply p_pattern_eq|]. unfold p_ident_pattern, p_cmp_pattern. pfw_with ltac:(apply p_cor_fw).
  Qed.
  Lemma p_cases_fw : forall n comma rng acc, pfw (p_cases rec_expr rec_src n comma rng acc).
  Proof.
    induction n as [|n IH]; intros comma rng acc; [apply pfw_fuel|]. eapply pfw_ext; [apply p_cases_eq|]. unfold p_case.
    pfw_with ltac:(first [exact Hrec|apply p_pattern_fw|apply IH]).
  Qed.
  Lemma p_expr_body_fw : pfw (p_expr_body rec_expr rec_src).
  Proof.
    eapply pfw_ext; [apply p_expr_body_eq|]. unfold p_match, p_cond. pfw_with ltac:(first [exact Hrec|apply p_cor_fw|apply p_cases_fw]).
  Qed.
End Levels.

Theorem parser_moves_forward : forall fuel depth, pfw (p_expr_at fuel depth).
Proof.
  induction fuel as [|f IH]; intros depth; cbn [p_expr_at]; [apply pfw_fuel|]. destruct (32 <=? depth); [apply pfw_fail_here|].
  apply p_expr_body_fw. apply IH.
Qed.

(** the whole tree of a parsed program lies inside its source text: it starts at or after the beginning, and the
    position the parser reached - an upper bound of every span (Proofs/ParseBounds.v) - is the position of a
    prefix of the source *)
Theorem program_inside_source fuel src e t : parse_program fuel src = POk e t ->
  bnd (mkLoc 0 0) (expr_range e) (reach t) /\ exists pre, src = pre ++ sc_rest (tz_scan t) /\ reach t = loc_after (mkLoc 0 0) pre.
Proof.
  intros H. split; [exact (proj2 (program_positions _ _ _ _ H))|].
  unfold parse_program in H. apply pbind_ok in H. destruct H as (e0 & t0 & P0 & H). apply pbind_ok in H. destruct H as (o & t1 & P1 & H).
  destruct o; [discriminate|]. injection H as _ <-.
  pose proof (parser_moves_forward _ _ _ _ _ P0) as F0. pose proof (pfw_peek _ _ _ P1) as F1.
  destruct (fwd_trans _ _ _ F0 F1) as (pre & R & L). exists pre. cbn in R, L. split; assumption.
Qed.
