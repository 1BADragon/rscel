(* Proofs/Fold.v — C09: each constant-folding site of the compiler computes
   what the VM computes from the unfolded code; a call evaluated at compile time is frozen only when
   [check_for_const] saw a value without errors and no request for a run-time input (the clock, an
   unbound name), and such a request, once marked in the log, stays marked. *)
From Coq Require Import ZArith List Bool Lia.
From Rscel Require Import Base.Prims Base.F64 Base.Text Model.Value Model.Ops Model.Dispatch Model.Funcs Model.Interp
     Model.Lexer Model.Ast Model.Parser Model.Compile.
From Rscel Require Import Proofs.VM Proofs.Blocks Proofs.OpsColl.
From Rscel Require Export Proofs.CompileMonad.
Import ListNotations.
Import Coq.Strings.String.StringSyntax.
Open Scope Z_scope.

Definition instr_fun (i : instr) : option (value -> value -> value) :=
  match i with
  | IAdd => Some add | ISub => Some sub | IMul => Some mul | IDiv => Some div | IMod => Some rem
  | ILt => Some lt | ILe => Some le | IEq => Some eq_ | INe => Some neq | IGe => Some ge | IGt => Some gt
  | IIn => Some in_ | IIndex => Some index
  | _ => None
  end.

(** VM: [Push x; Push y; op] leaves [f x y] for constants x, y. *)
Theorem vm_binop_on_constants : forall rs E d i f x y st lg,
  instr_fun i = Some f -> plainv x -> plainv y ->
  loop rs 4 E d [IPush x; IPush y; i] O st lg = (ROk (SVal (f x y) :: st), lg).
Proof.
  intros rs E d i f x y st lg Hi Hx Hy.
  rewrite loop_S. cbn [nth_error step]. unfold mret, push.
  rewrite loop_S. cbn [nth_error step]. unfold mret, push.
  rewrite loop_S. cbn [nth_error].
  assert (Hs : step rs E d i (SVal y :: SVal x :: st) lg = (ROk (None, SVal (f x y) :: st), lg)).
  { destruct i; try discriminate Hi; inversion Hi; subst; cbn [step]; unfold bin, mbind;
      rewrite (resolves_plain rs E d y lg Hy (SVal x :: st));
      rewrite (resolves_plain rs E d x lg Hx st); reflexivity. }
  rewrite Hs. rewrite loop_S. reflexivity.
Qed.

(** Compiler: when both operands are constants, [compile2 i f] folds to [f x y] -
    the same function, for every site that uses it. *)
Theorem compile2_folds_with_vm_function : forall i f x y pa pb,
  cp_node (compile2 i f (mkCP (NConst x) pa) (mkCP (NConst y) pb)) = NConst (f x y).
Proof. reflexivity. Qed.

Theorem compile2_unfolded_code : forall i f a b,
  (is_const (cp_node a) && is_const (cp_node b)) = false ->
  cp_node (compile2 i f a b) = NBytecode (into_bytecode (cp_node a) ++ into_bytecode (cp_node b) ++ [PBc i]).
Proof. intros i f [[?|?] ?] [[?|?] ?] H; try reflexivity. discriminate H. Qed.

(** every binary site of the compiler pairs an instruction with the VM's function for it *)
Theorem compile_sites_use_vm_functions :
  (forall op, exists i f, instr_fun i = Some f /\
     forall cl cr, (match op with MOMul => compile2 IMul mul cl cr | MODiv => compile2 IDiv div cl cr
                                  | MOMod => compile2 IMod rem cl cr end) = compile2 i f cl cr) /\
  (forall op, exists i f, instr_fun i = Some f /\
     forall cl cr, (match op with AOAdd => compile2 IAdd add cl cr | AOSub => compile2 ISub sub cl cr end)
                   = compile2 i f cl cr) /\
  (forall op, exists i f, instr_fun i = Some f /\
     forall cl cr, (match op with
                    | RLt => compile2 ILt lt cl cr | RLe => compile2 ILe le cl cr
                    | REq => compile2 IEq eq_ cl cr | RNe => compile2 INe neq cl cr
                    | RGe => compile2 IGe ge cl cr | RGt => compile2 IGt gt cl cr
                    | RIn => compile2 IIn in_ cl cr end) = compile2 i f cl cr).
Proof.
  repeat split; intros op; destruct op; do 2 eexists; (split; [|intros; reflexivity]); reflexivity.
Qed.

(** The clock does not exist at compile time: clock reads fail, so they are
    never constants (a failing call is kept as bytecode) and compilation is a
    function of the source alone. *)
Theorem compile_time_clock_reads_fail : forall this,
  e_now compile_env = None /\
  call_default None #"now" this [] = Some (ROk (VErr ERuntime)) /\
  construct_type None #"timestamp" [] = ROk (VErr ERuntime).
Proof. intros. repeat split. Qed.

Theorem check_for_const_keeps_failing_calls : forall fuel node n bc,
  resolve (into_bytecode (cp_node node)) = Some bc ->
  (exists e lg, run fuel compile_env bc true O [] = (RErr e, lg)) ->
  check_for_const fuel node n = COk (mkCP (NBytecode (of_code bc)) (cp_params node)) n.
Proof. intros fuel node n bc Hr (e & lg & Hrun). rewrite (check_for_const_eq _ _ _ _ Hr), Hrun. reflexivity. Qed.

Theorem check_for_const_rejects_nested_errors : forall fuel node n bc v lg,
  resolve (into_bytecode (cp_node node)) = Some bc ->
  run fuel compile_env bc true O [] = (ROk v, lg) -> contains_err v = true ->
  check_for_const fuel node n = COk (mkCP (NBytecode (of_code bc)) (cp_params node)) n.
Proof. intros fuel node n bc v lg Hr Hrun Hc. rewrite (check_for_const_eq _ _ _ _ Hr), Hrun, Hc, orb_true_r. reflexivity. Qed.

(** An evaluation that asked for the clock is never frozen, whatever value it ended with: the refusal
    is an ordinary error value that a match arm or a counting macro can absorb, so the value alone
    does not tell (utils/clock.rs remembers the request; here it is a mark in the log). *)
Theorem check_for_const_rejects_clock_requests : forall fuel node n bc v lg,
  resolve (into_bytecode (cp_node node)) = Some bc ->
  run fuel compile_env bc true O [] = (ROk v, lg) -> runtime_requested lg = true ->
  check_for_const fuel node n = COk (mkCP (NBytecode (of_code bc)) (cp_params node)) n.
Proof. intros fuel node n bc v lg Hr Hrun Hc. rewrite (check_for_const_eq _ _ _ _ Hr), Hrun, Hc. reflexivity. Qed.

(** the request is recorded exactly where the clock is refused: now() and the zero-parameter
    timestamp() (which the dispatcher's null padding also selects for timestamp(null)), while
    folding; every other call of these names does not depend on the clock at all *)
Theorem clock_request_is_recorded : forall E this lg, folding E = true -> assoc #"now" (e_ufuncs E) = None ->
  call_func E #"now" this [] lg = (ROk (VErr ERuntime), runtime_mark :: lg).
Proof.
  intros E this lg Hf Hu. unfold call_func. rewrite Hu. unfold mbind, note_clock. rewrite Hf. cbn [andb asks_clock_fn].
  unfold folding in Hf. destruct (e_now E); [discriminate|]. reflexivity.
Qed.

Theorem runtime_mark_stays : forall e lg, runtime_requested lg = true -> runtime_requested (e :: lg) = true.
Proof. intros e lg H. unfold runtime_requested in *. cbn [existsb]. rewrite H. apply orb_true_r. Qed.

Theorem unasked_calls_ignore_the_clock : forall now now' name this args tn,
  (asks_clock_fn name args = false -> call_default now name this args = call_default now' name this args) /\
  (asks_clock_ty tn args = false -> construct_type now tn args = construct_type now' tn args).
Proof.
  intros now now' name this args tn. split.
  - intros H. unfold call_default. destruct (negb (is_default_func name)); [reflexivity|].
    change (default_arms now' name) with (default_arms now name). destruct (default_arms now name); [reflexivity|].
    repeat match goal with |- (if ?c then _ else _) = (if ?c then _ else _) => destruct c eqn:?; [try reflexivity|] end;
      try reflexivity.
    unfold asks_clock_fn in H.
    match goal with Hb : bytes_eqb name #"now" = true |- _ => rewrite Hb in H end.
    destruct args; [discriminate H|reflexivity].
  - intros H. unfold construct_type.
    repeat match goal with |- (if ?c then _ else _) = (if ?c then _ else _) => destruct c eqn:?; [try reflexivity|] end;
      try reflexivity.
    unfold asks_clock_ty in H.
    match goal with Hb : bytes_eqb tn #"timestamp" = true |- _ => rewrite Hb in H end. cbn [andb] in H.
    destruct args as [|a [|b r]]; try discriminate H.
    + destruct a; try discriminate H; reflexivity.
    + reflexivity.
Qed.

Example contains_err_is_deep :
  contains_err (VList [VList [VErr (EBinding [120]); VInt 2]; VList [VInt 3]]) = true /\
  contains_err (VMap [([97], VList [VMap [([98], VErr EDivZero)]])]) = true /\
  contains_err (VList [VList [VInt 1]]) = false.
Proof. vm_compute. repeat split. Qed.
