(* Proofs/Spans.v — C18: the algebra of source spans.  Every parent span in the
   parser is computed with [surrounding]; it is the least span containing both
   arguments.  Scanner positions are exactly (lines consumed, characters since
   the last newline), so every reported location is a position of the source:
   inside a line or immediately at its end; so is the position reported for an error inside an
   f-string segment (the literal's own). *)
From Coq Require Import ZArith List Bool Lia.
From Rscel Require Import Base.Prims Base.F64 Base.Text Model.Value Model.Lexer Model.Ast Model.Parser Proofs.Literals.
Import ListNotations.
Open Scope Z_scope.

Definition loc_le (a b : loc) : Prop := l_line a < l_line b \/ (l_line a = l_line b /\ l_col a <= l_col b).

Lemma loc_leb_spec a b : loc_leb a b = true <-> loc_le a b.
Proof.
  unfold loc_leb, loc_le. rewrite orb_true_iff, andb_true_iff, Z.ltb_lt, Z.eqb_eq, Z.leb_le. tauto.
Qed.

Lemma loc_le_refl a : loc_le a a.
Proof. unfold loc_le. lia. Qed.
Lemma loc_le_trans a b c : loc_le a b -> loc_le b c -> loc_le a c.
Proof. unfold loc_le. lia. Qed.
Lemma loc_le_total a b : loc_le a b \/ loc_le b a.
Proof. unfold loc_le. lia. Qed.
Lemma loc_le_antisym a b : loc_le a b -> loc_le b a -> a = b.
Proof. destruct a, b. unfold loc_le. cbn. intros. f_equal; lia. Qed.

Lemma loc_leb_false a b : loc_leb a b = false -> loc_le b a.
Proof. intros E. destruct (loc_le_total a b) as [H|H]; [apply loc_leb_spec in H; congruence|exact H]. Qed.

Lemma loc_min_le_l a b : loc_le (loc_min a b) a.
Proof. unfold loc_min. destruct (loc_leb a b) eqn:E; [apply loc_le_refl|exact (loc_leb_false _ _ E)]. Qed.
Lemma loc_min_le_r a b : loc_le (loc_min a b) b.
Proof. unfold loc_min. destruct (loc_leb a b) eqn:E; [apply loc_leb_spec; exact E|apply loc_le_refl]. Qed.
Lemma loc_max_ge_l a b : loc_le a (loc_max a b).
Proof. unfold loc_max. destruct (loc_leb a b) eqn:E; [apply loc_leb_spec; exact E|apply loc_le_refl]. Qed.
Lemma loc_max_ge_r a b : loc_le b (loc_max a b).
Proof. unfold loc_max. destruct (loc_leb a b) eqn:E; [apply loc_le_refl|exact (loc_leb_false _ _ E)]. Qed.

Definition within (a b : range) : Prop := loc_le (r_start b) (r_start a) /\ loc_le (r_end a) (r_end b).
Definition well_ordered (a : range) : Prop := loc_le (r_start a) (r_end a).
Definition before (a b : range) : Prop := loc_le (r_end a) (r_start b).

Theorem surrounding_contains a b : within a (surrounding a b) /\ within b (surrounding a b).
Proof.
  unfold within, surrounding. cbn [r_start r_end].
  repeat split; auto using loc_min_le_l, loc_min_le_r, loc_max_ge_l, loc_max_ge_r.
Qed.

Lemma loc_min_glb a b c : loc_le c a -> loc_le c b -> loc_le c (loc_min a b).
Proof. intros A B. unfold loc_min. destruct (loc_leb a b); assumption. Qed.
Lemma loc_max_lub a b c : loc_le a c -> loc_le b c -> loc_le (loc_max a b) c.
Proof. intros A B. unfold loc_max. destruct (loc_leb a b); assumption. Qed.

Theorem surrounding_least a b c : within a c -> within b c -> within (surrounding a b) c.
Proof. intros [A1 A2] [B1 B2]. split; [apply loc_min_glb|apply loc_max_lub]; assumption. Qed.

Theorem surrounding_well_ordered a b : well_ordered a -> well_ordered (surrounding a b).
Proof.
  unfold well_ordered, surrounding. cbn [r_start r_end]. intros H.
  eapply loc_le_trans; [apply loc_min_le_l|]. eapply loc_le_trans; [exact H|apply loc_max_ge_l].
Qed.

(** for operands in source order the parent starts where the left one starts and ends where the right one ends *)
Theorem surrounding_ordered a b : well_ordered a -> well_ordered b -> before a b ->
  r_start (surrounding a b) = r_start a /\ r_end (surrounding a b) = r_end b.
Proof.
  unfold well_ordered, before, surrounding. cbn [r_start r_end]. intros Ha Hb Hab. split.
  - unfold loc_min. destruct (loc_leb (r_start a) (r_start b)) eqn:E; [reflexivity|].
    apply loc_le_antisym; [exact (loc_leb_false _ _ E)|eapply loc_le_trans; [exact Ha|exact Hab]].
  - unfold loc_max. destruct (loc_leb (r_end a) (r_end b)) eqn:E; [reflexivity|].
    apply loc_le_antisym; [eapply loc_le_trans; [exact Hab|exact Hb]|exact (loc_leb_false _ _ E)].
Qed.

Theorem within_trans a b c : within a b -> within b c -> within a c.
Proof. unfold within. intros [A1 A2] [B1 B2]. split; eapply loc_le_trans; eauto. Qed.

Theorem member_span_grows : forall ms r0,
  within r0 (fold_left (fun r m => surrounding r (mprime_range m)) ms r0) /\
  Forall (fun m => within (mprime_range m) (fold_left (fun r m => surrounding r (mprime_range m)) ms r0)) ms.
Proof.
  induction ms as [|m ms IH]; intros r0; cbn [fold_left].
  - split; [split; apply loc_le_refl|constructor].
  - destruct (IH (surrounding r0 (mprime_range m))) as [A B]. destruct (surrounding_contains r0 (mprime_range m)) as [C D].
    split; [eapply within_trans; eauto|]. constructor; [eapply within_trans; eauto|exact B].
Qed.

Fixpoint loc_after (l : loc) (pre : chars) : loc :=
  match pre with
  | [] => l
  | c :: r => loc_after (if c =? 10 then mkLoc (l_line l + 1) 0 else mkLoc (l_line l) (l_col l + 1)) r
  end.

Theorem advance_loc : forall pre s rest, sc_rest s = pre ++ rest ->
  sc_loc (advance s pre) = loc_after (sc_loc s) pre /\ sc_rest (advance s pre) = rest.
Proof.
  induction pre as [|c r IH]; intros s rest Hs; [split; [reflexivity|exact Hs]|].
  cbn [advance loc_after]. cbn [app] in Hs.
  assert (E : sc_rest (snd (sc_next s)) = r ++ rest /\
              sc_loc (snd (sc_next s)) = (if c =? 10 then mkLoc (l_line (sc_loc s) + 1) 0 else mkLoc (l_line (sc_loc s)) (l_col (sc_loc s) + 1))).
  { unfold sc_next. rewrite Hs. destruct (c =? 10); cbn; split; reflexivity. }
  destruct E as [E1 E2]. destruct (IH _ rest E1) as [A B]. rewrite A, E2. split; [reflexivity|exact B].
Qed.

Theorem loc_after_forward : forall pre l, loc_le l (loc_after l pre).
Proof.
  induction pre as [|c r IH]; intros l; [apply loc_le_refl|]. cbn [loc_after].
  eapply loc_le_trans; [|apply IH]. unfold loc_le. destruct (c =? 10); cbn; lia.
Qed.

(** the position after a prefix of the source: the number of newlines consumed,
    and the number of characters since the last one — a position of the source
    (inside a line or immediately at its end) *)
Definition count_nl (pre : chars) : Z := Z.of_nat (length (filter (fun c => c =? 10) pre)).
Fixpoint since_nl (pre : chars) (acc : Z) : Z :=
  match pre with [] => acc | c :: r => since_nl r (if c =? 10 then 0 else acc + 1) end.

Theorem loc_after_counts : forall pre l,
  loc_after l pre = mkLoc (l_line l + count_nl pre) (since_nl pre (l_col l)).
Proof.
  induction pre as [|c r IH]; intros l.
  - cbn. destruct l. cbn. f_equal. lia.
  - cbn [loc_after since_nl]. rewrite IH. unfold count_nl. cbn [filter]. destruct (c =? 10); cbn [l_line l_col length]; f_equal; lia.
Qed.

(** A syntax error inside an f-string segment is reported at the start of the
    literal, never at the segment-relative position of the nested parser. *)
Theorem segment_error_at_literal rec_src at_ : forall segs t l,
  check_segments rec_src at_ segs t = PErr l -> l = at_.
Proof.
  induction segs as [|sg r IH]; intros t l H; cbn [check_segments] in H.
  - discriminate H.
  - destruct sg as [s|s]; [exact (IH t l H)|].
    destruct (rec_src s) as [u t'|l'|]; [exact (IH t l H)| |discriminate H].
    unfold fail_at in H. congruence.
Qed.
