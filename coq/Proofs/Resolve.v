(* Proofs/Resolve.v — C12: the order in which names resolve, the order in
   call position, fields before methods, and the depth bound on chains of
   program references (finite chains, too-deep chains, cycles). *)
From Coq Require Import ZArith List Bool Lia.
From Rscel Require Import Base.Prims Base.F64 Base.Text Model.Value Model.Ops Model.Dispatch Model.Funcs Model.Interp.
From Rscel Require Import Proofs.VM Proofs.Blocks.
Import ListNotations.
Open Scope Z_scope.

Section Order.
  Variable rs : runner.
  Variable E : env.
  Variable d : nat.

  (** type, then variable, then stored program (same environment, i.e. the
      same bindings), else a Binding error value *)
  Theorem resolve_order name lg :
    resolve_ident rs E d name lg =
    match env_type E name, env_param E name, assoc name (e_progs E) with
    | Some t, _, _ => (ROk t, lg)
    | None, Some v, _ => (ROk v, lg)
    | None, None, Some c => rs E c true d lg
    | None, None, None =>
        match e_now E with          (* no clock = the compiler folding constants: the evaluation ends *)
        | None => (RErr (EBinding name), runtime_mark :: lg)   (* ... and is remembered *)
        | Some _ => (ROk (VErr (EBinding name)), lg)
        end
    end.
  Proof.
    unfold resolve_ident. destruct (env_type E name); [reflexivity|].
    destruct (env_param E name); [reflexivity|]. destruct (assoc name (e_progs E)); [reflexivity|].
    destruct (e_now E); reflexivity.
  Qed.

  Corollary type_wins name t lg : env_type E name = Some t -> resolve_ident rs E d name lg = (ROk t, lg).
  Proof. intros H. rewrite resolve_order, H. reflexivity. Qed.

  Corollary variable_wins_over_program name v lg :
    env_type E name = None -> env_param E name = Some v -> resolve_ident rs E d name lg = (ROk v, lg).
  Proof. intros H1 H2. rewrite resolve_order, H1, H2. reflexivity. Qed.

  Corollary program_under_same_bindings name c lg :
    env_type E name = None -> env_param E name = None -> assoc name (e_progs E) = Some c ->
    resolve_ident rs E d name lg = rs E c true d lg.
  Proof. intros H1 H2 H3. rewrite resolve_order, H1, H2, H3. reflexivity. Qed.

  Corollary unbound_fails name lg t :
    env_type E name = None -> env_param E name = None -> assoc name (e_progs E) = None -> e_now E = Some t ->
    resolve_ident rs E d name lg = (ROk (VErr (EBinding name)), lg).
  Proof. intros H1 H2 H3 H4. rewrite resolve_order, H1, H2, H3, H4. reflexivity. Qed.

  (** a name in call position: bound or default function, then macro, then
      type constructor, else "not callable" *)
  Theorem call_order name n st lg :
    step rs E d (ICall n) (SVal (VIdent name) :: st) lg =
    match pop_n rs E d (Z.to_nat n) st lg with
    | (ROk (args, st2), lg1) =>
        if has_func E name then
          (do vals <- resolve_args rs E d args; do r <- call_func E name VNull vals; mret (None, push r st2)) lg1
        else if has_macro E name then
          (do r <- call_macro rs E d name VNull args; mret (None, push r st2)) lg1
        else match env_type E name with
             | Some (VType tn) =>
                 (do vals <- resolve_args rs E d args;
                  do _ <- note_clock E (asks_clock_ty tn vals);
                  do r <- mlift (construct_type (e_now E) tn vals); mret (None, push r st2)) lg1
             | _ => (if folding E then mfail_runtime ERuntime else mret (None, push (VErr ERuntime) st2)) lg1
             end
    | (o, lg1) => (mcast o, lg1)
    end.
  Proof.
    cbn [step]. unfold mbind at 1. cbn [pop_noresolve mret]. unfold mbind at 1.
    destruct (pop_n rs E d (Z.to_nat n) st lg) as [[[args st2]| | | |] lg1]; try reflexivity.
    destruct (has_func E name); [reflexivity|]. destruct (has_macro E name); [reflexivity|].
    destruct (env_type E name) as [t|]; [destruct t|]; reflexivity.
  Qed.

  Corollary not_callable name st lg :
    has_func E name = false -> has_macro E name = false -> env_type E name = None -> folding E = false ->
    step rs E d (ICall 0) (SVal (VIdent name) :: st) lg = (ROk (None, push (VErr ERuntime) st), lg).
  Proof. intros H1 H2 H3 H4. rewrite call_order. cbn. rewrite H1, H2, H3, H4. reflexivity. Qed.

  (** while the compiler folds constants a name that is not callable ends the evaluation (it may be callable at run time) *)
  Corollary not_callable_stops_folding name st lg :
    has_func E name = false -> has_macro E name = false -> env_type E name = None -> folding E = true ->
    step rs E d (ICall 0) (SVal (VIdent name) :: st) lg = (RErr ERuntime, runtime_mark :: lg).
  Proof. intros H1 H2 H3 H4. rewrite call_order. cbn. rewrite H1, H2, H3, H4. reflexivity. Qed.

  Lemma access_map m f st lg :
    step rs E d IAccess (SVal (VIdent f) :: SVal (VMap m) :: st) lg =
    match map_get m f with
    | Some v => (ROk (None, push v st), lg)
    | None =>
        (if has_func E f then mret (None, SBound false f (VMap m) :: st)
         else if has_macro E f then mret (None, SBound true f (VMap m) :: st)
         else if folding E then mfail_runtime (EAttribute f)
         else mret (None, push (VErr (EAttribute f)) st)) lg
    end.
  Proof.
    cbn [step]. unfold mbind at 1. cbn [pop_noresolve mret]. unfold mbind at 1.
    rewrite (resolves_plain rs E d (VMap m) lg I st). destruct (map_get m f); reflexivity.
  Qed.

  (** a map field wins over a function or macro of the same name *)
  Theorem field_over_method m f v st lg :
    map_get m f = Some v ->
    step rs E d IAccess (SVal (VIdent f) :: SVal (VMap m) :: st) lg = (ROk (None, push v st), lg).
  Proof. intros H. rewrite access_map, H. reflexivity. Qed.

  Theorem method_when_no_field m f st lg :
    map_get m f = None -> has_func E f = true ->
    step rs E d IAccess (SVal (VIdent f) :: SVal (VMap m) :: st) lg = (ROk (None, SBound false f (VMap m) :: st), lg).
  Proof. intros H Hf. rewrite access_map, H, Hf. reflexivity. Qed.
End Order.

Lemma run_S fuel E c r d :
  run (S fuel) E c r d =
  if Nat.ltb 32 (S d) then mfail ERuntime
  else do st <- loop (run fuel) fuel E (S d) c O []; finish (run fuel) E (S d) r st.
Proof. reflexivity. Qed.

(** the guard: a run entered with 32 activations already open fails at once *)
Theorem run_depth_guard fuel E c r d lg : (32 <= d)%nat -> run (S fuel) E c r d lg = (RErr ERuntime, lg).
Proof.
  intros H. rewrite run_S. destruct (Nat.ltb 32 (S d)) eqn:L; [reflexivity|]. apply Nat.ltb_ge in L. lia.
Qed.

Lemma run_push fuel E v d lg : (d < 32)%nat ->
  run (S (S (S fuel))) E [IPush v] true d lg = finish (run (S (S fuel))) E (S d) true [SVal v] lg.
Proof.
  intros H. rewrite run_S. destruct (Nat.ltb 32 (S d)) eqn:L; [apply Nat.ltb_lt in L; lia|].
  unfold mbind at 1. rewrite loop_S. cbn [nth_error step]. unfold mret at 1. unfold push.
  rewrite loop_S. reflexivity.
Qed.

Lemma run_ident fuel E name d lg : (d < 32)%nat ->
  run (S (S (S fuel))) E [IPush (VIdent name)] true d lg =
  match resolve_ident (run (S (S fuel))) E (S d) name lg with
  | (ROk (VErr e), lg') => (RErr e, lg')
  | (ROk v, lg') => (ROk v, lg')
  | (o, lg') => (mcast o, lg')
  end.
Proof.
  intros H. rewrite run_push by exact H. unfold finish, mbind. cbn [pop]. unfold mbind.
  destruct (resolve_ident (run (S (S fuel))) E (S d) name lg) as [[v|e| | |] lg']; try reflexivity.
  cbn [mret fst into_value]. destruct v; reflexivity.
Qed.

Lemma run_value fuel E v d lg : (d < 32)%nat -> plainv v -> is_err v = false ->
  run (S (S (S fuel))) E [IPush v] true d lg = (ROk v, lg).
Proof.
  intros H Hp He. rewrite run_push by exact H. unfold finish, mbind.
  destruct v; try (destruct Hp); try discriminate He; reflexivity.
Qed.

Section Chains.
  Variable E : env.
  Variable nm : nat -> bytes.          (* the programs of the chain, in order *)
  Hypothesis Hty : forall i, env_type E (nm i) = None.
  Hypothesis Hpa : forall i, env_param E (nm i) = None.

  (** program i is a reference to program i+1 *)
  Definition links (i : nat) : Prop := assoc (nm i) (e_progs E) = Some [IPush (VIdent (nm (S i)))].

  Lemma resolve_link j d fuel lg : links j -> (d < 32)%nat ->
    resolve_ident (run (S (S (S fuel)))) E d (nm j) lg =
    match resolve_ident (run (S (S fuel))) E (S d) (nm (S j)) lg with
    | (ROk (VErr e), lg') => (RErr e, lg')
    | (ROk v, lg') => (ROk v, lg')
    | (o, lg') => (mcast o, lg')
    end.
  Proof.
    intros Hl Hd. rewrite program_under_same_bindings with (c := [IPush (VIdent (nm (S j)))]); auto.
    apply run_ident, Hd.
  Qed.

  (** A chain nm j -> nm (j+1) -> ... -> nm k ending in a value: started with
      d activations open it evaluates to that value exactly when the
      last program still fits under the limit of 32 activations. *)
  Theorem chain_ok v k : plainv v -> is_err v = false ->
    assoc (nm k) (e_progs E) = Some [IPush v] ->
    forall n j d fuel lg, (j + n = k)%nat -> (forall i, (j <= i < k)%nat -> links i) ->
      (d + n < 32)%nat -> (n + 3 <= fuel)%nat ->
      resolve_ident (run fuel) E d (nm j) lg = (ROk v, lg).
  Proof.
    intros Hp He Hk. induction n as [|n IH]; intros j d fuel lg Hj Hl Hd Hf;
      destruct fuel as [|[|[|f]]]; try lia.
    - assert (j = k) by lia. subst j. rewrite program_under_same_bindings with (c := [IPush v]); auto.
      apply run_value; [lia|assumption|assumption].
    - rewrite resolve_link by (try apply Hl; lia).
      rewrite (IH (S j) (S d) (S (S f)) lg) by (try lia; intros i Hi; apply Hl; lia).
      destruct v; try reflexivity; discriminate He.
  Qed.

  (** A chain of references longer than the budget — in particular any cycle,
      which is an endless chain — ends in a runtime error, whatever the fuel
      beyond the few steps needed to get there. *)
  Theorem chain_too_deep : (forall i, links i) ->
    forall n j d fuel lg, (d + n = 32)%nat -> (n + 3 <= fuel)%nat ->
      resolve_ident (run fuel) E d (nm j) lg = (RErr ERuntime, lg).
  Proof.
    intros Hl. induction n as [|n IH]; intros j d fuel lg Hd Hf; destruct fuel as [|[|[|f]]]; try lia.
    - rewrite program_under_same_bindings with (c := [IPush (VIdent (nm (S j)))]); auto; [|apply Hl].
      apply run_depth_guard. lia.
    - rewrite resolve_link by (try apply Hl; lia). rewrite (IH (S j) (S d) (S (S f)) lg) by lia. reflexivity.
  Qed.
End Chains.

(** exec of the head of a chain (depth counter starts at 0): up to 32
    programs evaluate, more — or a cycle — fail with a runtime error. *)
Theorem exec_chain_ok E nm v k fuel :
  (forall i, env_type E (nm i) = None) -> (forall i, env_param E (nm i) = None) ->
  plainv v -> is_err v = false -> assoc (nm k) (e_progs E) = Some [IPush v] ->
  (forall i, (i < k)%nat -> links E nm i) -> (k < 32)%nat -> (k + 3 <= fuel)%nat ->
  exec fuel E (nm 0%nat) = (ROk v, []).
Proof.
  intros Hty Hpa Hp He Hk Hl Hd Hf. unfold exec.
  pose proof (chain_ok E nm Hty Hpa v k Hp He Hk k 0%nat 0%nat fuel [] ltac:(lia)
                (fun i Hi => Hl i ltac:(lia)) ltac:(lia) ltac:(lia)) as H.
  destruct (assoc (nm 0%nat) (e_progs E)) as [c|] eqn:A.
  - rewrite (program_under_same_bindings (run fuel) E 0 (nm 0%nat) c []) in H; auto. rewrite H. reflexivity.
  - exfalso. destruct k as [|k]; [congruence|]. specialize (Hl 0%nat ltac:(lia)). unfold links in Hl. congruence.
Qed.

Theorem exec_chain_too_deep E nm fuel :
  (forall i, env_type E (nm i) = None) -> (forall i, env_param E (nm i) = None) ->
  (forall i, links E nm i) -> (35 <= fuel)%nat ->
  exec fuel E (nm 0%nat) = (RErr ERuntime, []).
Proof.
  intros Hty Hpa Hl Hf. unfold exec.
  pose proof (chain_too_deep E nm Hty Hpa Hl 32 0%nat 0%nat fuel [] ltac:(lia) ltac:(lia)) as H.
  rewrite (Hl 0%nat).
  rewrite (program_under_same_bindings (run fuel) E 0 (nm 0%nat) [IPush (VIdent (nm 1%nat))] []) in H; auto; [|apply Hl]. rewrite H. reflexivity.
Qed.

Corollary self_reference_fails E a fuel :
  env_type E a = None -> env_param E a = None -> assoc a (e_progs E) = Some [IPush (VIdent a)] ->
  (35 <= fuel)%nat -> exec fuel E a = (RErr ERuntime, []).
Proof.
  intros H1 H2 H3 Hf. apply (exec_chain_too_deep E (fun _ => a)); auto.
Qed.

Corollary mutual_reference_fails E a b fuel :
  env_type E a = None -> env_param E a = None -> env_type E b = None -> env_param E b = None ->
  assoc a (e_progs E) = Some [IPush (VIdent b)] -> assoc b (e_progs E) = Some [IPush (VIdent a)] ->
  (35 <= fuel)%nat -> exec fuel E a = (RErr ERuntime, []).
Proof.
  intros H1 H2 H3 H4 H5 H6 Hf.
  apply (exec_chain_too_deep E (fun i => if Nat.even i then a else b)); auto.
  - intros i. destruct (Nat.even i); assumption.
  - intros i. destruct (Nat.even i); assumption.
  - intros i. unfold links. rewrite Nat.even_succ, <- Nat.negb_even. destruct (Nat.even i); assumption.
Qed.
