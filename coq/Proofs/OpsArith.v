(* Proofs/OpsArith.v — C03: the model's numeric operators are exact or fail.
   Every operator first brings its operands to a common type ([type_prop]);
   on a numeric pair that is the widening table of Spec/Arith, so an operator
   is described once, on the widened pair ([model_op_numeric]), and both the
   exactness statement and range preservation are read off that description. *)
From Coq Require Import ZArith List Bool Lia.
From Coq Require Import Floats.SpecFloat.
From Rscel Require Import Base.Prims Base.F64 Model.Value Model.Ops Spec.Wf Spec.Arith.
From Rscel Require Import Proofs.F64Facts.
Import ListNotations.
Open Scope Z_scope.

Definition model_op (o : aop) : value -> value -> value :=
  match o with AAdd => add | ASub => sub | AMul => mul | ADiv => div | ARem => rem end.

Lemma in_i64_spec z : in_i64 z = true <-> i64_min <= z <= i64_max.
Proof. unfold in_i64. rewrite andb_true_iff, !Z.leb_le. tauto. Qed.
Lemma in_u64_spec z : in_u64 z = true <-> 0 <= z <= u64_max.
Proof. unfold in_u64. rewrite andb_true_iff, !Z.leb_le. tauto. Qed.

Lemma uint_fits_i64 y : in_u64 y = true -> (y <=? i64_max) = true -> in_i64 y = true.
Proof. rewrite in_u64_spec, in_i64_spec, Z.leb_le. unfold i64_min. lia. Qed.

Lemma quot_u64 x y : in_u64 x = true -> in_u64 y = true -> y <> 0 -> in_u64 (Z.quot x y) = true.
Proof.
  rewrite !in_u64_spec. intros Hx Hy Hn.
  assert (0 <= Z.quot x y) by (apply Z.quot_pos; lia).
  assert (Z.quot x y <= x) by (apply Z.quot_le_upper_bound; nia).
  lia.
Qed.

Lemma rem_i64 x y : in_i64 y = true -> y <> 0 -> in_i64 (Z.rem x y) = true.
Proof.
  rewrite !in_i64_spec. unfold i64_min, i64_max. intros Hy Hn.
  pose proof (Z.rem_bound_abs x y Hn).
  destruct (Z_le_gt_dec 0 x).
  - pose proof (Z.rem_nonneg x y Hn l). lia.
  - assert (Z.rem x y <= 0) by (apply Z.rem_nonpos; lia). lia.
Qed.

Lemma rem_u64 x y : in_u64 x = true -> in_u64 y = true -> y <> 0 -> in_u64 (Z.rem x y) = true.
Proof. rewrite !in_u64_spec. intros Hx Hy Hn. pose proof (Z.rem_bound_pos x y). lia. Qed.

Lemma error_prop_or_left a b f : is_err a = true -> error_prop_or a b f = a.
Proof. unfold error_prop_or. intros ->. reflexivity. Qed.
Lemma error_prop_or_right a b f : is_err a = false -> is_err b = true -> error_prop_or a b f = b.
Proof. unfold error_prop_or. intros -> ->. reflexivity. Qed.
Lemma error_prop_or_ok a b f : is_err a = false -> is_err b = false -> error_prop_or a b f = f a b.
Proof. unfold error_prop_or. intros -> ->. reflexivity. Qed.

Theorem arith_error_leftmost :
  forall o a b,
    (is_err a = true -> model_op o a b = a) /\
    (is_err a = false -> is_err b = true -> model_op o a b = b).
Proof.
  intros o a b. split.
  - intros Ha. destruct o; exact (error_prop_or_left _ _ _ Ha).
  - intros Ha Hb. destruct o; exact (error_prop_or_right _ _ _ Ha Hb).
Qed.

Lemma wf_checked (c : bool) v : (c = true -> wf v = true) -> wf (if c then v else VErr EValue) = true.
Proof. destruct c; intros H; [apply H|]; reflexivity. Qed.

Lemma num_not_err a n : num_of a = Some n -> is_err a = false.
Proof. destruct a; try discriminate; reflexivity. Qed.

Lemma type_prop_widen a b na nb : num_of a = Some na -> num_of b = Some nb ->
  match widen na nb with
  | WInt x y => type_prop a b = (VInt x, VInt y)
  | WUInt x y => type_prop a b = (VUInt x, VUInt y)
  | WDouble x y => type_prop a b = (VFloat x, VFloat y)
  | WBool x y => type_prop a b = (VBool x, VBool y)
  | WNone => exists x y, type_prop a b = (VInt x, VUInt y) \/ type_prop a b = (VUInt x, VInt y)
  end.
Proof.
  intros Ha Hb.
  destruct a as [x|x|x|x| | | | | | | | | | | ]; try discriminate Ha; injection Ha as <-;
    destruct b as [y|y|y|y| | | | | | | | | | | ]; try discriminate Hb; injection Hb as <-;
    cbn [type_prop widen to_double]; try reflexivity.
  - destruct (y <=? i64_max); [reflexivity|eauto].
  - destruct (x <=? i64_max); [reflexivity|eauto].
Qed.

Lemma type_prop_other a b : num_of a = None \/ num_of b = None -> type_prop a b = (a, b).
Proof.
  intros [H|H]; destruct a; try discriminate H; try reflexivity; destruct b; try discriminate H; reflexivity.
Qed.

Lemma type_prop_same a : type_prop a a = (a, a).
Proof. destruct a; reflexivity. Qed.

Lemma type_prop_swap a b : type_prop b a = (snd (type_prop a b), fst (type_prop a b)).
Proof.
  destruct (num_of a) as [na|] eqn:Ha; [destruct (num_of b) as [nb|] eqn:Hb|];
    [|rewrite !type_prop_other by auto; reflexivity ..].
  destruct a as [x|x|x|x| | | | | | | | | | | ]; try discriminate Ha;
    destruct b as [y|y|y|y| | | | | | | | | | | ]; try discriminate Hb; cbn [type_prop]; try reflexivity.
  - destruct (y <=? i64_max); reflexivity.
  - destruct (x <=? i64_max); reflexivity.
Qed.

Lemma b2z_i64 b : in_i64 (b2z b) = true.
Proof. destruct b; reflexivity. Qed.
Lemma b2z_u64 b : in_u64 (b2z b) = true.
Proof. destruct b; reflexivity. Qed.

Lemma widen_in_range a b na nb : wf a = true -> wf b = true -> num_of a = Some na -> num_of b = Some nb ->
  match widen na nb with
  | WInt x y => in_i64 x = true /\ in_i64 y = true
  | WUInt x y => in_u64 x = true /\ in_u64 y = true
  | _ => True
  end.
Proof.
  intros Wa Wb Ha Hb.
  destruct a as [x|x|x|x| | | | | | | | | | | ]; try discriminate Ha; injection Ha as <-;
    destruct b as [y|y|y|y| | | | | | | | | | | ]; try discriminate Hb; injection Hb as <-;
    cbn [widen wf] in *; auto using b2z_i64, b2z_u64.
  - destruct (y <=? i64_max) eqn:L; [|exact I]. split; [exact Wa|exact (uint_fits_i64 y Wb L)].
  - destruct (x <=? i64_max) eqn:L; [|exact I]. split; [exact (uint_fits_i64 x Wa L)|exact Wb].
Qed.

Lemma type_prop_wf a b : wf a = true -> wf b = true ->
  wf (fst (type_prop a b)) = true /\ wf (snd (type_prop a b)) = true.
Proof.
  intros Wa Wb.
  destruct (num_of a) as [na|] eqn:Ha; [destruct (num_of b) as [nb|] eqn:Hb|];
    [|rewrite type_prop_other by auto; auto ..].
  assert (Vb : forall c : bool, f64_valid (if c then f64_one else f64_zero) = true) by (intros []; reflexivity).
  destruct a as [x|x|x|x| | | | | | | | | | | ]; try discriminate Ha;
    destruct b as [y|y|y|y| | | | | | | | | | | ]; try discriminate Hb;
    cbn [type_prop fst snd wf] in *; auto using f64_of_Z_valid, b2z_i64, b2z_u64.
  - destruct (y <=? i64_max) eqn:L; cbn [fst snd wf]; auto using uint_fits_i64.
  - destruct (x <=? i64_max) eqn:L; cbn [fst snd wf]; auto using uint_fits_i64.
Qed.

(** What an operator returns on a widened pair: the exact result, range-checked,
    or the error that says why there is none. *)
Definition exact_or_error (o : aop) (w : widened) : value :=
  match w with
  | WInt x y => match math o x y with Some r => ck_int r | None => VErr EDivZero end
  | WUInt x y => match math o x y with Some r => ck_uint r | None => VErr EDivZero end
  | WDouble x y => match fmath o x y with Some r => VFloat r | None => VErr EInvalidOp end
  | WBool _ _ | WNone => VErr EInvalidOp
  end.

(** The model computes that.  Three of its arms skip the range check (uint
    division and the two remainders); well-formed operands are why they may. *)
Theorem model_op_numeric o a b na nb :
  wf a = true -> wf b = true -> num_of a = Some na -> num_of b = Some nb ->
  model_op o a b = exact_or_error o (widen na nb).
Proof.
  intros Wa Wb Ha Hb.
  pose proof (type_prop_widen a b na nb Ha Hb) as T.
  pose proof (widen_in_range a b na nb Wa Wb Ha Hb) as R.
  assert (E : forall f, error_prop_or a b f = f a b)
    by (intros f; apply error_prop_or_ok; eapply num_not_err; eassumption).
  destruct (widen na nb) as [x y|x y|x y|x y|]; [| | | |destruct T as (x & y & [T|T])];
    destruct o; cbn [model_op exact_or_error math fmath]; unfold add, sub, mul, div, rem;
    rewrite E, T; try reflexivity.
  (* left over: int division, where only the zero test differs in shape, and the three unchecked arms *)
  - destruct (Z.eqb_spec y 0); reflexivity.
  - destruct (Z.eqb_spec y 0); [reflexivity|]. unfold ck_int. rewrite rem_i64 by (try apply R; assumption). reflexivity.
  - destruct (Z.eqb_spec y 0); [reflexivity|]. unfold ck_uint. rewrite quot_u64 by (try apply R; assumption). reflexivity.
  - destruct (Z.eqb_spec y 0); [reflexivity|]. unfold ck_uint. rewrite rem_u64 by (try apply R; assumption). reflexivity.
Qed.

(** The full characterisation on a numeric pair: the operator computes
    [arith_spec] of the widened pair, and is an error exactly when that is
    [None]. *)
Definition agrees (r : value) (s : option value) : Prop :=
  match s with Some v => r = v | None => is_err r = true end.

Theorem arith_exact_or_error :
  forall o a b na nb,
    wf a = true -> wf b = true ->
    num_of a = Some na -> num_of b = Some nb ->
    agrees (model_op o a b) (arith_spec o (widen na nb)).
Proof.
  intros o a b na nb Wa Wb Ha Hb. rewrite (model_op_numeric o a b na nb Wa Wb Ha Hb).
  destruct (widen na nb) as [x y|x y|x y|x y|]; cbn [exact_or_error arith_spec]; try reflexivity.
  - destruct (math o x y) as [z|]; [|reflexivity]. unfold ck_int. destruct (in_i64 z); reflexivity.
  - destruct (math o x y) as [z|]; [|reflexivity]. unfold ck_uint. destruct (in_u64 z); reflexivity.
  - destruct (fmath o x y); reflexivity.
Qed.

(** The only non-numeric operand pairs an arithmetic operator accepts. *)
Definition concat_or_time (o : aop) (a b : value) : bool :=
  match o, a, b with
  | AAdd, VString _, VString _ | AAdd, VBytes _, VBytes _ | AAdd, VList _, VList _
  | AAdd, VTime _, VDur _ | AAdd, VDur _, VTime _ | AAdd, VDur _, VDur _
  | ASub, VTime _, VDur _ | ASub, VTime _, VTime _ | ASub, VDur _, VTime _ | ASub, VDur _, VDur _ => true
  | _, _, _ => false
  end.

(** Outside that list and the numeric pairs there is no matching arm.  The
    case analysis follows the model's own: on the left operand, and on the
    right one only where an arm for that left operand exists. *)
Lemma model_op_no_arm o a b :
  is_err a = false -> is_err b = false -> num_of a = None \/ num_of b = None ->
  concat_or_time o a b = false -> model_op o a b = VErr EInvalidOp.
Proof.
  intros Ea Eb Hn Hc.
  assert (E : forall f, error_prop_or a b f = f a b) by (intros f; apply error_prop_or_ok; assumption).
  pose proof (type_prop_other a b Hn) as T.
  destruct o; cbn [model_op]; unfold add, sub, mul, div, rem; rewrite E, T; clear E T;
    destruct a; try discriminate Ea; try reflexivity;
    destruct b; try discriminate Eb; try discriminate Hc; try reflexivity;
    destruct Hn as [Hn|Hn]; discriminate Hn.
Qed.

Theorem arith_other_pairs_error :
  forall o a b,
    (num_of a = None \/ num_of b = None) ->
    concat_or_time o a b = false ->
    is_err (model_op o a b) = true.
Proof.
  intros o a b Hn Hc.
  destruct (is_err a) eqn:Ea.
  { rewrite (proj1 (arith_error_leftmost o a b) Ea). exact Ea. }
  destruct (is_err b) eqn:Eb.
  { rewrite (proj2 (arith_error_leftmost o a b) Ea Eb). exact Eb. }
  rewrite (model_op_no_arm o a b Ea Eb Hn Hc). reflexivity.
Qed.

Theorem concat_spec :
  (forall x y, add (VString x) (VString y) = VString (x ++ y)) /\
  (forall x y, add (VBytes x) (VBytes y) = VBytes (x ++ y)) /\
  (forall x y, add (VList x) (VList y) = VList (x ++ y)).
Proof. repeat split. Qed.

Theorem neg_exact_or_error :
  forall a, wf a = true ->
    match a with
    | VInt x => if in_i64 (- x) then neg a = VInt (- x) else is_err (neg a) = true
    | VFloat x => neg a = VFloat (f64_neg x)
    | VErr _ => neg a = a
    | _ => is_err (neg a) = true      (* in particular every uint *)
    end.
Proof.
  intros a _. destruct a; try reflexivity. cbn [neg]. unfold ck_int. destruct (in_i64 (- z)); reflexivity.
Qed.

Definition num_val (n : num) : option Z :=
  match n with NInt z => Some z | NUInt z => Some z | NBool b => Some (b2z b) | NDouble _ => None end.

Theorem widen_int_exact :
  forall a b,
    match widen a b with
    | WInt x y | WUInt x y => num_val a = Some x /\ num_val b = Some y
    | WBool x y => a = NBool x /\ b = NBool y
    | WDouble x y => x = to_double a /\ y = to_double b
    | WNone => True
    end.
Proof.
  intros a b. destruct a as [x|x|x|x], b as [y|y|y|y]; cbn [widen]; try (split; reflexivity).
  - destruct (y <=? i64_max); [split; reflexivity|exact I].
  - destruct (x <=? i64_max); [split; reflexivity|exact I].
Qed.

(** A pair that is not widened to a common type is exactly an int meeting a
    uint above i64::MAX. *)
Theorem widen_none_iff :
  forall a b, widen a b = WNone <->
    (exists x y, a = NInt x /\ b = NUInt y /\ i64_max < y) \/
    (exists x y, a = NUInt x /\ b = NInt y /\ i64_max < x).
Proof.
  intros a b. split.
  - destruct a as [x|x|x|x], b as [y|y|y|y]; cbn [widen]; try discriminate.
    + destruct (Z.leb_spec y i64_max); [discriminate|]. left. eauto.
    + destruct (Z.leb_spec x i64_max); [discriminate|]. right. eauto.
  - intros [(x & y & -> & -> & H)|(x & y & -> & -> & H)]; cbn [widen].
    + destruct (Z.leb_spec y i64_max); [lia|reflexivity].
    + destruct (Z.leb_spec x i64_max); [lia|reflexivity].
Qed.

(** Results are well-formed values: in particular every integer result lies in
    its type's range (no wrap-around). *)
Lemma wf_list l : wf (VList l) = forallb wf l.
Proof. induction l as [|x l IH]; [reflexivity|]. cbn [wf forallb] in *. rewrite IH. reflexivity. Qed.

Lemma bytes_ok_app x y : bytes_ok (x ++ y) = bytes_ok x && bytes_ok y.
Proof. apply forallb_app. Qed.

Lemma exact_or_error_wf o w :
  match w with WDouble x y => f64_valid x = true /\ f64_valid y = true | _ => True end ->
  wf (exact_or_error o w) = true.
Proof.
  destruct w as [x y|x y|x y|x y|]; cbn [exact_or_error]; try reflexivity.
  - intros _. destruct (math o x y); [apply wf_checked; trivial|reflexivity].
  - intros _. destruct (math o x y); [apply wf_checked; trivial|reflexivity].
  - intros [Vx Vy]. destruct o; cbn [fmath wf]; auto using f64_add_valid, f64_sub_valid, f64_mul_valid, f64_div_valid.
Qed.

Lemma concat_time_wf o a b : wf a = true -> wf b = true -> concat_or_time o a b = true -> wf (model_op o a b) = true.
Proof.
  intros Wa Wb Hc.
  destruct o; try discriminate Hc; destruct a; try discriminate Hc; destruct b; try discriminate Hc;
    cbn -[wf checked_time checked_dur]; try (apply wf_checked; trivial).
  - cbn [wf] in *. rewrite bytes_ok_app, Wa, Wb. reflexivity.
  - cbn [wf] in *. rewrite bytes_ok_app, Wa, Wb. reflexivity.
  - rewrite wf_list in *. rewrite forallb_app, Wa, Wb. reflexivity.
  - (* the difference of two instants is not range-checked: chrono's instants are narrower than its durations *)
    cbn [wf] in *. unfold in_time, in_dur, time_min_ns, time_max_ns, dur_min_ns, dur_max_ns in *.
    apply andb_true_iff in Wa, Wb. destruct Wa as [A1 A2], Wb as [B1 B2].
    apply Z.leb_le in A1, A2, B1, B2. apply andb_true_iff; split; apply Z.leb_le; lia.
Qed.

Theorem arith_preserves_wf :
  forall o a b, wf a = true -> wf b = true -> wf (model_op o a b) = true.
Proof.
  intros o a b Wa Wb.
  destruct (is_err a) eqn:Ea.
  { rewrite (proj1 (arith_error_leftmost o a b) Ea). exact Wa. }
  destruct (is_err b) eqn:Eb.
  { rewrite (proj2 (arith_error_leftmost o a b) Ea Eb). exact Wb. }
  destruct (concat_or_time o a b) eqn:Hc; [apply concat_time_wf; assumption|].
  destruct (num_of a) as [na|] eqn:Na; [destruct (num_of b) as [nb|] eqn:Nb|];
    [|rewrite (model_op_no_arm o a b Ea Eb) by auto; reflexivity ..].
  rewrite (model_op_numeric o a b na nb Wa Wb Na Nb). apply exact_or_error_wf.
  pose proof (type_prop_widen a b na nb Na Nb) as T. destruct (type_prop_wf a b Wa Wb) as [W1 W2].
  destruct (widen na nb); try exact I. rewrite T in W1, W2. split; assumption.
Qed.
