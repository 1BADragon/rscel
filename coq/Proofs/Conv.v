(* Proofs/Conv.v — C14: conversions are exact on their domain and reject the rest. *)
From Coq Require Import ZArith List Bool Lia.
From Coq Require Import Floats.SpecFloat.
From Rscel Require Import Base.Prims Base.F64 Base.Text Base.FloatText Model.Value Model.Ops Model.Dispatch Model.Funcs Model.Lexer.
From Rscel Require Import Proofs.Literals.
Import ListNotations.
Import Coq.Strings.String.StringSyntax.
Open Scope Z_scope.

Lemma digits_value_fold : forall ds a, digits_value a ds = fold_left (dstep 10) ds (Some a).
Proof.
  induction ds as [|d r IH]; intros a; [reflexivity|]. cbn [digits_value fold_left dstep]. cbn [Z.eqb].
  destruct (is_digit d) eqn:D.
  - rewrite IH. unfold hex_val. rewrite D. reflexivity.
  - clear IH. induction r as [|x r IH]; [reflexivity|]. cbn [fold_left dstep]. exact IH.
Qed.

Lemma digits_value_dec n : 0 <= n -> digits_value 0 (dec_of_nonneg n) = Some n /\ dec_of_nonneg n <> [].
Proof.
  intros Hn. destruct (dec_of_nonneg_digits n Hn) as [_ Hne]. split; [|exact Hne].
  rewrite digits_value_fold. rewrite <- digits_value_base_fold by exact Hne. apply decimal_denotes. exact Hn.
Qed.

Lemma dec_head_digit n : 0 <= n -> exists d r, dec_of_nonneg n = d :: r /\ is_digit d = true.
Proof.
  intros Hn. destruct (dec_of_nonneg_digits n Hn) as [Hd Hne]. destruct (dec_of_nonneg n) as [|d r]; [congruence|].
  exists d, r. split; [reflexivity|exact (Forall_inv Hd)].
Qed.

Lemma parse_i64_unsigned d r : is_digit d = true ->
  parse_i64 (d :: r) = match digits_value 0 (d :: r) with
                       | Some v => if in_i64 v then Some v else None
                       | None => None
                       end.
Proof. intros Hd. apply digit_cases in Hd. repeat destruct Hd as [->|Hd]; try subst d; reflexivity. Qed.

Lemma parse_u64_unsigned d r : is_digit d = true ->
  parse_u64 (d :: r) = match digits_value 0 (d :: r) with
                       | Some v => if in_u64 v then Some v else None
                       | None => None
                       end.
Proof. intros Hd. apply digit_cases in Hd. repeat destruct Hd as [->|Hd]; try subst d; reflexivity. Qed.

(** int(string(i)) == i over the whole int64 range *)
Theorem parse_i64_dec z : in_i64 z = true -> parse_i64 (dec_of_Z z) = Some z.
Proof.
  intros Hr. unfold dec_of_Z. destruct (Z.ltb_spec z 0) as [Neg|Neg].
  - unfold parse_i64. destruct (digits_value_dec (- z) ltac:(lia)) as [Hv Hne].
    destruct (dec_of_nonneg (- z)) as [|d r] eqn:E; [congruence|]. rewrite Hv.
    replace (- - z) with z by lia. rewrite Hr. reflexivity.
  - destruct (dec_head_digit z Neg) as (d & r & E & Hd). destruct (digits_value_dec z Neg) as [Hv _]. rewrite E in *.
    rewrite (parse_i64_unsigned d r Hd), Hv, Hr. reflexivity.
Qed.

(** uint(string(u)) == u over the whole uint64 range *)
Theorem parse_u64_dec z : in_u64 z = true -> parse_u64 (dec_of_Z z) = Some z.
Proof.
  intros Hr. assert (Hz : 0 <= z) by (apply andb_true_iff in Hr; destruct Hr as [A _]; apply Z.leb_le in A; lia).
  unfold dec_of_Z. rewrite (proj2 (Z.ltb_ge z 0) Hz).
  destruct (dec_head_digit z Hz) as (d & r & E & Hd). destruct (digits_value_dec z Hz) as [Hv _]. rewrite E in *.
  rewrite (parse_u64_unsigned d r Hd), Hv, Hr. reflexivity.
Qed.

(** a minus sign has no unsigned reading *)
Theorem parse_u64_negative r : parse_u64 (45 :: r) = None.
Proof. reflexivity. Qed.

Section Ctor.
  Variable now : option Z.

  Theorem int_of_string_of_int z : in_i64 z = true ->
    construct_type now #"string" [VInt z] = ROk (VString (dec_of_Z z)) /\
    construct_type now #"int" [VString (dec_of_Z z)] = ROk (VInt z).
  Proof.
    intros H. split; [reflexivity|]. unfold construct_type. cbn [bytes_eqb].
    change (dispatch int_arms VNull [VString (dec_of_Z z)]) with
      (match parse_i64 (dec_of_Z z) with Some z' => ok (VInt z') | None => verr EValue end).
    rewrite (parse_i64_dec z H). reflexivity.
  Qed.

  Theorem uint_of_string_of_uint z : in_u64 z = true ->
    construct_type now #"string" [VUInt z] = ROk (VString (dec_of_Z z)) /\
    construct_type now #"uint" [VString (dec_of_Z z)] = ROk (VUInt z).
  Proof.
    intros H. split; [reflexivity|]. unfold construct_type.
    change (dispatch uint_arms VNull [VString (dec_of_Z z)]) with
      (match parse_u64 (dec_of_Z z) with Some z' => ok (VUInt z') | None => verr EValue end).
    rewrite (parse_u64_dec z H). reflexivity.
  Qed.

  (** integral conversions preserve the number or fail: never a wrapped value *)
  Theorem uint_of_int z :
    construct_type now #"uint" [VInt z] = ROk (if 0 <=? z then VUInt z else VErr EValue).
  Proof. unfold construct_type. cbn. destruct (0 <=? z); reflexivity. Qed.

  Theorem int_of_uint z :
    construct_type now #"int" [VUInt z] = ROk (if z <=? i64_max then VInt z else VErr EValue).
  Proof. unfold construct_type. cbn. destruct (z <=? i64_max); reflexivity. Qed.

  Theorem int_of_int z : construct_type now #"int" [VInt z] = ROk (VInt z).
  Proof. reflexivity. Qed.
  Theorem uint_of_uint z : construct_type now #"uint" [VUInt z] = ROk (VUInt z).
  Proof. reflexivity. Qed.

  (** double -> integer: truncation toward zero, saturating; NaN gives 0 *)
  Theorem int_of_double f : construct_type now #"int" [VFloat f] = ROk (VInt (f64_to_i64 f)).
  Proof. reflexivity. Qed.
  Theorem uint_of_double f : construct_type now #"uint" [VFloat f] = ROk (VUInt (f64_to_u64 f)).
  Proof. reflexivity. Qed.

  (** integer -> double: the correctly rounded value (Proofs/F64Facts.f64_of_Z_ieee) *)
  Theorem double_of_int z : construct_type now #"double" [VInt z] = ROk (VFloat (f64_of_Z z)).
  Proof. reflexivity. Qed.
  Theorem double_of_uint z : construct_type now #"double" [VUInt z] = ROk (VFloat (f64_of_Z z)).
  Proof. reflexivity. Qed.

  (** text -> double: Rust's grammar, correctly rounded (Proofs/FloatLit) *)
  Theorem double_of_string s :
    construct_type now #"double" [VString s] =
    ROk (match rust_parse_f64 s with Some x => VFloat x | None => VErr EValue end).
  Proof. unfold construct_type. cbn. destruct (rust_parse_f64 s); reflexivity. Qed.

  Theorem bytes_of_string s : construct_type now #"bytes" [VString s] = ROk (VBytes s).
  Proof. reflexivity. Qed.
  Theorem string_of_bytes b :
    construct_type now #"string" [VBytes b] = ROk (if utf8_valid b then VString b else VErr EValue).
  Proof. unfold construct_type. cbn. destruct (utf8_valid b); reflexivity. Qed.

  Theorem dyn_is_identity v : construct_type now #"dyn" [v] = ROk v.
  Proof. unfold construct_type. cbn. destruct v; reflexivity. Qed.
End Ctor.

Theorem f64_to_i64_range f : -9223372036854775808 <= f64_to_i64 f <= 9223372036854775807.
Proof. unfold f64_to_i64. destruct f as [s|s| |s m e]; try (destruct s); try lia; destruct (f64_trunc _); lia. Qed.

Theorem f64_to_u64_range f : 0 <= f64_to_u64 f <= 18446744073709551615.
Proof. unfold f64_to_u64. destruct f as [s|s| |s m e]; try (destruct s); try lia; destruct (f64_trunc _); lia. Qed.

Theorem f64_to_i64_exact s m e z : f64_trunc (S754_finite s m e) = Some z ->
  -9223372036854775808 <= z <= 9223372036854775807 -> f64_to_i64 (S754_finite s m e) = z.
Proof. intros H Hr. unfold f64_to_i64. rewrite H. lia. Qed.

(** truncation toward zero of m * 2^e *)
Theorem f64_trunc_spec s m e :
  f64_trunc (S754_finite s m e) =
  Some (let mag := if 0 <=? e then Zpos m * 2 ^ e else Zpos m / 2 ^ (- e) in if s then - mag else mag).
Proof. reflexivity. Qed.

Lemma utf8_decode_fuel_more : forall fuel bs r, utf8_decode_fuel fuel bs = Some r ->
  forall extra, utf8_decode_fuel (fuel + extra) bs = Some r.
Proof.
  induction fuel as [|f IH]; intros bs r H extra.
  - destruct bs; [|discriminate]. inversion H. destruct extra; reflexivity.
  - cbn [Nat.add]. cbn [utf8_decode_fuel] in *. destruct bs as [|b0 r0]; [exact H|].
    destruct (b0 <? 128).
    { destruct (utf8_decode_fuel f r0) eqn:E; [|discriminate]. rewrite (IH _ _ E). exact H. }
    destruct (b0 <? 194); [discriminate|].
    destruct (b0 <? 224).
    { destruct r0 as [|b1 r1]; [discriminate|]. destruct (is_cont b1); [|discriminate].
      destruct (utf8_decode_fuel f r1) eqn:E; [|discriminate]. rewrite (IH _ _ E). exact H. }
    destruct (b0 <? 240).
    { destruct r0 as [|b1 [|b2 r2]]; try discriminate.
      destruct (is_cont b1 && is_cont b2 && (2048 <=? (b0 - 224) * 4096 + (b1 - 128) * 64 + (b2 - 128)) &&
                is_scalar ((b0 - 224) * 4096 + (b1 - 128) * 64 + (b2 - 128))); [|discriminate].
      destruct (utf8_decode_fuel f r2) eqn:E; [|discriminate]. rewrite (IH _ _ E). exact H. }
    destruct (b0 <? 245); [|discriminate].
    destruct r0 as [|b1 [|b2 [|b3 r3]]]; try discriminate.
    match type of H with (if ?c then _ else _) = _ => destruct c; [|discriminate] end.
    destruct (utf8_decode_fuel f r3) eqn:E; [|discriminate]. rewrite (IH _ _ E). exact H.
Qed.

Lemma is_cont_enc x : is_cont (128 + x mod 64) = true.
Proof.
  pose proof (Z.mod_pos_bound x 64 ltac:(lia)). unfold is_cont. apply andb_true_iff. rewrite Z.leb_le, Z.ltb_lt. lia.
Qed.

(** one character: its encoding decodes to itself, whatever follows.  In each
    length class the leading byte falls in the decoder's range for that class,
    the continuation bytes are continuation bytes, and the bits reassemble. *)
Lemma utf8_char_roundtrip c rest fuel r : is_scalar c = true ->
  utf8_decode_fuel fuel rest = Some r ->
  utf8_decode_fuel (S fuel) (utf8_encode_char c ++ rest) = Some (c :: r).
Proof.
  intros Hs Hr. pose proof Hs as Hc. unfold is_scalar in Hc.
  rewrite orb_true_iff, !andb_true_iff, !Z.leb_le, Z.ltb_lt in Hc. unfold utf8_encode_char.
  destruct (Z.ltb_spec c 128); [|destruct (Z.ltb_spec c 2048); [|destruct (Z.ltb_spec c 65536)]];
    cbn [app utf8_decode_fuel]; rewrite ?is_cont_enc, Hr; cbn [andb option_map].
  - rewrite (proj2 (Z.ltb_lt c 128)) by lia. reflexivity.
  - rewrite !(proj2 (Z.ltb_ge _ _)), (proj2 (Z.ltb_lt _ 224)) by (Z.div_mod_to_equations; lia).
    do 2 f_equal. Z.div_mod_to_equations; lia.
  - replace ((224 + c / 4096 - 224) * 4096 + (128 + (c / 64) mod 64 - 128) * 64 + (128 + c mod 64 - 128)) with c
      by (Z.div_mod_to_equations; lia).
    rewrite !(proj2 (Z.ltb_ge _ _)), (proj2 (Z.ltb_lt _ 240)), (proj2 (Z.leb_le 2048 c)), Hs
      by (Z.div_mod_to_equations; lia). reflexivity.
  - replace ((240 + c / 262144 - 240) * 262144 + (128 + (c / 4096) mod 64 - 128) * 4096 +
             (128 + (c / 64) mod 64 - 128) * 64 + (128 + c mod 64 - 128)) with c by (Z.div_mod_to_equations; lia).
    rewrite !(proj2 (Z.ltb_ge _ _)), (proj2 (Z.ltb_lt _ 245)), (proj2 (Z.leb_le 65536 c)), (proj2 (Z.leb_le c 1114111))
      by (Z.div_mod_to_equations; lia). reflexivity.
Qed.

Lemma utf8_decode_encode : forall cs, Forall (fun c => is_scalar c = true) cs ->
  forall fuel, (length cs <= fuel)%nat -> utf8_decode_fuel fuel (utf8_encode cs) = Some cs.
Proof.
  induction cs as [|c r IH]; intros Hc fuel Hl; [destruct fuel; reflexivity|].
  destruct fuel as [|f]; [cbn in Hl; lia|]. unfold utf8_encode. cbn [flat_map].
  apply utf8_char_roundtrip; [exact (Forall_inv Hc)|]. apply IH; [exact (Forall_inv_tail Hc)|cbn in Hl; lia].
Qed.

Theorem utf8_roundtrip : forall cs, Forall (fun c => is_scalar c = true) cs ->
  exists fuel, forall extra, utf8_decode_fuel (fuel + extra) (utf8_encode cs) = Some cs.
Proof. intros cs H. exists (length cs). intros extra. apply utf8_decode_encode; [exact H|lia]. Qed.

Lemma utf8_encode_char_length c : (1 <= length (utf8_encode_char c))%nat.
Proof. unfold utf8_encode_char. destruct (c <? 128); [cbn; lia|]. destruct (c <? 2048); [cbn; lia|]. destruct (c <? 65536); cbn; lia. Qed.

Theorem utf8_valid_encode cs : Forall (fun c => is_scalar c = true) cs ->
  utf8_decode (utf8_encode cs) = Some cs /\ utf8_valid (utf8_encode cs) = true.
Proof.
  intros H. assert (D : utf8_decode (utf8_encode cs) = Some cs).
  { apply utf8_decode_encode; [exact H|]. clear. induction cs as [|c r IH]; [cbn; lia|].
    unfold utf8_encode in *. cbn [flat_map length]. rewrite app_length. pose proof (utf8_encode_char_length c). lia. }
  split; [exact D|]. unfold utf8_valid. rewrite D. reflexivity.
Qed.

Lemma dispatch_cases arms this args :
  dispatch arms this args = ROk (VErr EArgument) \/
  exists a args', In a arms /\ arm_match (max_args arms) a this args' = true /\
                  dispatch arms this args = a_impl a this args'.
Proof.
  unfold dispatch. destruct (Nat.ltb _ _); [left; reflexivity|].
  destruct (find _ arms) as [a|] eqn:F; [|left; reflexivity].
  right. exists a, (args ++ repeat VNull (max_args arms - length args)). apply find_some in F. tauto.
Qed.

Definition result_type_ok (tname : bytes) (r : res value) : Prop :=
  match r with
  | ROk (VErr _) => True
  | ROk v => as_type v = VType tname
  | _ => True
  end.

Definition arm_sound (P : res value -> Prop) (a : arm) : Prop :=
  forall mx this args, arm_match mx a this args = true -> P (a_impl a this args).

Lemma dispatch_sound (P : res value -> Prop) arms this args :
  P (ROk (VErr EArgument)) -> Forall (arm_sound P) arms -> P (dispatch arms this args).
Proof.
  intros He Ha. destruct (dispatch_cases arms this args) as [E|(a & args' & Hin & Hm & E)]; rewrite E; [exact He|].
  exact (proj1 (Forall_forall _ _) Ha a Hin _ _ _ Hm).
Qed.

Lemma arm1_sound (P : res value -> Prop) p f :
  P bad -> (forall v, pat_match p v = true -> P (f v)) -> arm_sound P (arm1 p f).
Proof.
  intros Hb H mx this [|v rest] Hm; [exact Hb|]. apply H.
  unfold arm_match in Hm. cbn in Hm. apply andb_true_iff in Hm. destruct Hm as [_ Hm].
  apply andb_true_iff in Hm. exact (proj1 Hm).
Qed.

Lemma arm2_sound (P : res value -> Prop) p q f :
  P bad -> (forall v w, pat_match p v = true -> pat_match q w = true -> P (f v w)) -> arm_sound P (arm2 p q f).
Proof.
  intros Hb H mx this [|v [|w rest]] Hm; try exact Hb. unfold arm_match in Hm. cbn in Hm.
  apply andb_true_iff in Hm. destruct Hm as [_ Hm]. apply andb_true_iff in Hm. destruct Hm as [Hv Hm].
  apply andb_true_iff in Hm. exact (H v w Hv (proj1 Hm)).
Qed.

(** the bodies of the overloads: every branch builds a value with the constructor of the type, or an error *)
Ltac solve_body :=
  try unfold checked_time; try unfold duration_new;
  repeat match goal with
         | |- context [if ?c then _ else _] => destruct c
         | |- context [match ?x with _ => _ end] => destruct x
         end; cbn; try exact I; try reflexivity.

Ltac arms_sound :=
  apply dispatch_sound; [exact I|]; repeat apply Forall_cons; try apply Forall_nil;
  try (apply arm1_sound; [exact I|intros v Hv; destruct v; try discriminate Hv; solve_body]).

Section ResultTypes.
  Variable now : option Z.
  Variable args : list value.

  Theorem int_result_type : result_type_ok #"int" (construct_type now #"int" args).
  Proof. change (construct_type now #"int" args) with (dispatch int_arms VNull args). arms_sound. Qed.
  Theorem uint_result_type : result_type_ok #"uint" (construct_type now #"uint" args).
  Proof. change (construct_type now #"uint" args) with (dispatch uint_arms VNull args). arms_sound. Qed.
  Theorem double_result_type : result_type_ok #"float" (construct_type now #"double" args).
  Proof. change (construct_type now #"double" args) with (dispatch double_arms VNull args). arms_sound. Qed.
  Theorem string_result_type : result_type_ok #"string" (construct_type now #"string" args).
  Proof. change (construct_type now #"string" args) with (dispatch string_arms VNull args). arms_sound. Qed.
  Theorem bytes_result_type : result_type_ok #"bytes" (construct_type now #"bytes" args).
  Proof. change (construct_type now #"bytes" args) with (dispatch bytes_arms VNull args). arms_sound. Qed.
  Theorem bool_result_type : result_type_ok #"bool" (construct_type now #"bool" args).
  Proof. change (construct_type now #"bool" args) with (dispatch bool_arms VNull args). arms_sound. Qed.
  Theorem duration_result_type : result_type_ok #"duration" (construct_type now #"duration" args).
  Proof.
    change (construct_type now #"duration" args) with (dispatch duration_arms VNull args). arms_sound.
    apply arm2_sound; [exact I|]. intros v w Hv Hw. destruct v; try discriminate Hv. destruct w; try discriminate Hw. solve_body.
  Qed.
  Theorem timestamp_result_type : result_type_ok #"timestamp" (construct_type now #"timestamp" args).
  Proof.
    change (construct_type now #"timestamp" args) with (dispatch (timestamp_arms now) VNull args). arms_sound.
    intros mx this args' _. cbn. destruct now; exact I || reflexivity.
  Qed.
End ResultTypes.
