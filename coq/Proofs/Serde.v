(* Proofs/Serde.v — C19: reading back what was written gives the same value,
   code and error, with times at millisecond resolution. *)
From Coq Require Import ZArith List Bool Lia.
From Rscel Require Import Base.Prims Base.F64 Base.Text Model.Value Model.Serde.
From Rscel Require Import Proofs.ValueInd.
Import ListNotations.
Open Scope Z_scope.

Lemma all_some_map {A B} (f : A -> option B) (g : A -> B) l :
  Forall (fun x => f x = Some (g x)) l -> all_some (map f l) = Some (map g l).
Proof.
  induction 1 as [|x r H _ IH]; [reflexivity|]. cbn [map all_some]. rewrite H, IH. reflexivity.
Qed.

Lemma de_ser_err e : de_err (ser_err e) = Some e.
Proof. destruct e; reflexivity. Qed.

Lemma value_instr_both (P : value -> Prop) (Q : instr -> Prop) :
  (forall l, Forall P l -> P (VList l)) -> (forall m, Forall (fun kv => P (snd kv)) m -> P (VMap m)) ->
  (forall c, Forall Q c -> P (VCode c)) ->
  (forall v, match v with VList _ | VMap _ | VCode _ => False | _ => True end -> P v) ->
  (forall v, P v -> Q (IPush v)) -> (forall i, match i with IPush _ => False | _ => True end -> Q i) ->
  (forall v, P v) /\ (forall i, Q i).
Proof. intros. split; [apply value_instr_ind with (Q := Q)|apply instr_value_ind with (P := P)]; assumption. Qed.

Theorem de_ser_roundtrip :
  (forall v, de_value (ser_value v) = Some (quant v)) /\ (forall i, de_instr (ser_instr i) = Some (quant_instr i)).
Proof.
  apply value_instr_both.
  - intros l H. cbn [ser_value de_value quant]. rewrite map_map.
    rewrite (all_some_map (fun x => de_value (ser_value x)) quant l H). reflexivity.
  - intros m H. cbn [ser_value de_value quant]. rewrite map_map. cbn [fst snd].
    rewrite (all_some_map (fun kv : bytes * value => option_map (pair (fst kv)) (de_value (ser_value (snd kv))))
                          (fun kv => (fst kv, quant (snd kv))) m).
    + reflexivity.
    + eapply Forall_impl; [|exact H]. cbn. intros [k x] Hx. cbn [fst snd] in *. rewrite Hx. reflexivity.
  - intros c H. cbn [ser_value de_value quant]. rewrite map_map.
    rewrite (all_some_map (fun x => de_instr (ser_instr x)) quant_instr c H). reflexivity.
  - intros v Hv. destruct v; try (destruct Hv); try reflexivity.
    + cbn [ser_value de_value quant]. rewrite map_map.
      rewrite (all_some_map (fun x => de_u8 (SDU x)) (fun x => x) s); [rewrite map_id; reflexivity|].
      apply Forall_forall. intros x _. reflexivity.
    + cbn [ser_value de_value quant]. rewrite de_ser_err. reflexivity.
  - intros v Hv. cbn [ser_instr de_instr quant_instr]. rewrite Hv. reflexivity.
  - intros i Hi. destruct i; try (destruct Hi); try reflexivity. destruct w; reflexivity.
Qed.

(** a value at millisecond resolution comes back unchanged *)
Fixpoint ms_res (v : value) : Prop :=
  match v with
  | VTime ns | VDur ns => ns mod 1000000 = 0
  | VList l => (fix go (l : list value) := match l with [] => True | x :: r => ms_res x /\ go r end) l
  | VMap m => (fix go (m : list (bytes * value)) := match m with [] => True | (_, x) :: r => ms_res x /\ go r end) m
  | VCode c => (fix go (c : list instr) := match c with [] => True | i :: r => ms_res_instr i /\ go r end) c
  | _ => True
  end
with ms_res_instr (i : instr) : Prop := match i with IPush v => ms_res v | _ => True end.

Lemma quot_exact ns : ns mod 1000000 = 0 -> Z.quot ns 1000000 * 1000000 = ns /\ ns / 1000000 * 1000000 = ns.
Proof.
  intros H. pose proof (Z.div_mod ns 1000000 ltac:(lia)) as D.
  assert (E : ns = ns / 1000000 * 1000000) by lia.
  split; [|lia]. set (q := ns / 1000000) in *. rewrite E. rewrite Z.quot_mul by lia. reflexivity.
Qed.

Theorem quant_id :
  (forall v, ms_res v -> quant v = v) /\ (forall i, ms_res_instr i -> quant_instr i = i).
Proof.
  apply value_instr_both.
  - intros l H Hm. cbn [quant]. f_equal. induction H as [|x r Hx _ IH]; [reflexivity|].
    cbn in Hm. destruct Hm as [H1 H2]. cbn [map]. rewrite (Hx H1), (IH H2). reflexivity.
  - intros m H Hm. cbn [quant]. f_equal. induction H as [|[k x] r Hx _ IH]; [reflexivity|].
    cbn in Hm. destruct Hm as [H1 H2]. cbn [map fst snd] in *. rewrite (Hx H1), (IH H2). reflexivity.
  - intros c H Hm. cbn [quant]. f_equal. induction H as [|i r Hi _ IH]; [reflexivity|].
    cbn in Hm. destruct Hm as [H1 H2]. cbn [map]. rewrite (Hi H1), (IH H2). reflexivity.
  - intros v Hv Hm. destruct v; try (destruct Hv); try reflexivity; cbn [quant ms_res] in *;
      unfold ms_of_ns, dur_ms_of_ns; destruct (quot_exact ns Hm) as [A B]; rewrite ?A, ?B; reflexivity.
  - intros v Hv Hm. cbn [quant_instr]. rewrite (Hv Hm). reflexivity.
  - intros i Hi _. destruct i; try (destruct Hi); reflexivity.
Qed.

Theorem code_roundtrip c : Forall ms_res_instr c ->
  all_some (map de_instr (map ser_instr c)) = Some c.
Proof.
  intros H. rewrite map_map. destruct de_ser_roundtrip as [_ R]. destruct quant_id as [_ Q].
  rewrite (all_some_map (fun i => de_instr (ser_instr i)) (fun i => i) c); [rewrite map_id; reflexivity|].
  eapply Forall_impl; [|exact H]. cbn. intros i Hi. rewrite R, (Q i Hi). reflexivity.
Qed.

(** the written form determines the value: two values written alike are equal up to sub-millisecond time *)
Theorem ser_injective v1 v2 : ser_value v1 = ser_value v2 -> quant v1 = quant v2.
Proof.
  intros H. destruct de_ser_roundtrip as [R _]. pose proof (R v1) as A. pose proof (R v2) as B. rewrite H in A. congruence.
Qed.
