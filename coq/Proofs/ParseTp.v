(* Proofs/ParseTp.v — what every tree the parser returns looks like, at every depth ([built]): each span is
   the one the parser computes from the spans of the parts, and a type pattern carries the name of a built-in
   type.  One induction over the parser proves it; what is said of the trees elsewhere (the nesting of spans in
   Proofs/ParseSpans.v, and here that the compiler never meets the state Compile.c_pattern marks unreachable)
   is then read off the trees. *)
From Coq Require Import ZArith List Bool Lia.
From Rscel Require Import Base.Prims Base.F64 Base.Text Model.Value Model.Funcs Model.Lexer Model.Ast Model.Parser Proofs.OpsOrder Proofs.ParseCases.
Import ListNotations.
Open Scope Z_scope.

Section Tp.
  Variable rec : expr -> Prop.

  Definition tp_primary (p : primary) : Prop :=
    match p with
    | PrParens _ e => rec e
    | PrList _ es => Forall rec es
    | PrObj _ inits => Forall (fun i => match i with ObjInit _ k v => rec k /\ rec v end) inits
    | _ => True
    end.
  Definition tp_mprime (m : mprime) : Prop :=
    match m with MPCall _ args => Forall rec args | MPIndex _ e => rec e | MPAccess _ _ _ => True end.
  Definition tp_member (m : member) : Prop := match m with Member _ p ms => tp_primary p /\ Forall tp_mprime ms end.
  Definition tp_unary (u : unary) : Prop := match u with UnMember _ m | UnNot _ _ m | UnNeg _ _ m => tp_member m end.
  Fixpoint tp_mult (e : mult) : Prop := match e with MulUn _ u => tp_unary u | MulBin _ l _ r => tp_mult l /\ tp_unary r end.
  Fixpoint tp_addn (e : addn) : Prop := match e with AddUn _ u => tp_mult u | AddBin _ l _ r => tp_addn l /\ tp_mult r end.
  Fixpoint tp_rel (e : rel) : Prop := match e with RelUn _ u => tp_addn u | RelBin _ l _ r => tp_rel l /\ tp_addn r end.
  Fixpoint tp_cand (e : cand) : Prop := match e with AndUn _ u => tp_rel u | AndBin _ l r => tp_cand l /\ tp_rel r end.
  Fixpoint tp_cor (e : cor) : Prop := match e with OrUn _ u => tp_cand u | OrBin _ l r => tp_cor l /\ tp_cand r end.
  Definition tp_pattern (p : mpat) : Prop :=
    match p with
    | MPatCmp _ _ _ o => tp_cor o
    | MPatType _ _ _ name => is_type_name (utf8_encode name) = true
    | MPatAny _ _ => True
    end.
  Definition tp_case (c : mcase) : Prop := match c with MCase _ p arm => tp_pattern p /\ rec arm end.
  Definition tp_expr_body (e : expr) : Prop :=
    match e with
    | EUnary _ c => tp_cor c
    | ETernary _ c t f => tp_cor c /\ tp_cor t /\ rec f
    | EMatch _ c cases => rec c /\ Forall tp_case cases
    end.
End Tp.

Fixpoint tp (fuel : nat) (e : expr) : Prop :=
  match fuel with O => True | S f => tp_expr_body (tp f) e end.

Definition pok {A} (Q : A -> Prop) (m : P A) : Prop := forall t a t', m t = POk a t' -> Q a.

Lemma pok_ret {A} (Q : A -> Prop) a : Q a -> pok Q (pret a).
Proof. intros H t a0 t' E. injection E as <- _. exact H. Qed.
Lemma pok_bind {A B} (Q : A -> Prop) (R : B -> Prop) m f : pok Q m -> (forall a, Q a -> pok R (f a)) -> pok R (pbind m f).
Proof. intros Hm Hf t b t' E. apply pbind_ok in E. destruct E as (a & t1 & M & E). eapply Hf; [eapply Hm; eauto|exact E]. Qed.
Lemma pok_fail_here {A} (Q : A -> Prop) : pok Q fail_here.
Proof. intros t a t' E. discriminate. Qed.
Lemma pok_fail_at {A} (Q : A -> Prop) l : pok Q (fail_at l).
Proof. intros t a t' E. discriminate. Qed.
Lemma pok_any {A} (m : P A) : pok (fun _ => True) m.
Proof. intros t a t' _. exact I. Qed.
Lemma pok_fuel {A} (Q : A -> Prop) : pok Q (fun _ => PFuel).
Proof. intros t a t' E. discriminate. Qed.
Lemma pok_at {A} (Q : A -> Prop) (f : tokenizer -> P A) : (forall t0, pok Q (f t0)) -> pok Q (fun t => f t t).
Proof. intros H t a t' E. eapply H; eauto. Qed.
Lemma pok_skip {A B} (R : B -> Prop) (m : P A) f : (forall a, pok R (f a)) -> pok R (pbind m f).
Proof. intros H. eapply pok_bind; [apply pok_any|]. intros a _. apply H. Qed.
Lemma pok_ext {A} (Q : A -> Prop) (m m' : P A) : (forall t, m t = m' t) -> pok Q m' -> pok Q m.
Proof. intros E H t a t' M. rewrite E in M. eapply H; eauto. Qed.

Section Built.
  Variable rec : expr -> Prop.

  Definition built_init (i : objinit) : Prop :=
    match i with ObjInit r k v => r = surrounding (expr_range k) (expr_range v) /\ rec k /\ rec v end.
  Definition built_primary (p : primary) : Prop :=
    match p with
    | PrParens _ e => rec e
    | PrList _ es => Forall rec es
    | PrObj _ inits => Forall built_init inits
    | _ => True
    end.
  Definition built_mprime (m : mprime) : Prop :=
    match m with
    | MPCall _ args => Forall rec args
    | MPIndex _ e => rec e
    | MPAccess r ir _ => exists dl, r = surrounding dl ir
    end.
  Definition built_member (m : member) : Prop :=
    match m with
    | Member r p ms => r = fold_left (fun r m => surrounding r (mprime_range m)) ms (primary_range p) /\
                       built_primary p /\ Forall built_mprime ms
    end.
  Definition built_unary (u : unary) : Prop :=
    match u with
    | UnMember r m => r = member_range m /\ built_member m
    | UnNot r ops m => r = surrounding (oplist_range ops) (member_range m) /\ built_member m
    | UnNeg r ops m => r = surrounding (member_range m) (oplist_range ops) /\ built_member m
    end.
  Fixpoint built_mult (e : mult) : Prop :=
    match e with MulUn r u => r = unary_range u /\ built_unary u
               | MulBin r l _ b => r = surrounding (mult_range l) (unary_range b) /\ built_mult l /\ built_unary b end.
  Fixpoint built_addn (e : addn) : Prop :=
    match e with AddUn r u => r = mult_range u /\ built_mult u
               | AddBin r l _ b => r = surrounding (addn_range l) (mult_range b) /\ built_addn l /\ built_mult b end.
  Fixpoint built_rel (e : rel) : Prop :=
    match e with RelUn r u => r = addn_range u /\ built_addn u
               | RelBin r l _ b => r = surrounding (rel_range l) (addn_range b) /\ built_rel l /\ built_addn b end.
  Fixpoint built_cand (e : cand) : Prop :=
    match e with AndUn r u => r = rel_range u /\ built_rel u
               | AndBin r l b => r = surrounding (cand_range l) (rel_range b) /\ built_cand l /\ built_rel b end.
  Fixpoint built_cor (e : cor) : Prop :=
    match e with OrUn r u => r = cand_range u /\ built_cand u
               | OrBin r l b => r = surrounding (cor_range l) (cand_range b) /\ built_cor l /\ built_cand b end.
  Definition built_pattern (p : mpat) : Prop :=
    match p with
    | MPatCmp _ _ _ o => built_cor o
    | MPatType _ _ _ name => is_type_name name = true
    | MPatAny _ _ => True
    end.
  Definition built_case (c : mcase) : Prop :=
    match c with MCase r p arm => r = surrounding (mpat_range p) (expr_range arm) /\ built_pattern p /\ rec arm end.
  Definition built_expr_body (e : expr) : Prop :=
    match e with
    | EUnary r c => r = cor_range c /\ built_cor c
    | ETernary r c t f => r = surrounding (cor_range c) (expr_range f) /\ built_cor c /\ built_cor t /\ rec f
    | EMatch _ c cases => rec c /\ Forall built_case cases
    end.
End Built.

Fixpoint built (fuel : nat) (e : expr) : Prop :=
  match fuel with O => True | S f => built_expr_body (built f) e end.

Section Levels.
  Variable rec_expr : P expr.
  Variable rec_src : chars -> pres unit.
  Variable R : expr -> Prop.
  Hypothesis Hrec : pok R rec_expr.

  Lemma lloop_ok {A B O} (QA : A -> Prop) (QB : B -> Prop) (opof : token -> option O) (rhs : P B) (mk : A -> O -> B -> A) :
    pok QB rhs -> (forall a o b, QA a -> QB b -> QA (mk a o b)) ->
    forall n acc, QA acc -> pok QA (lloop n opof rhs mk acc).
  Proof.
    intros Hr Hmk. induction n as [|n IH]; intros acc Ha; cbn [lloop]; [apply pok_fuel|].
    apply pok_skip. intros [t|]; [|apply pok_ret; exact Ha].
    destruct (opof (t_tok t)) as [op|]; [|apply pok_ret; exact Ha].
    apply pok_skip. intros _. eapply pok_bind; [exact Hr|]. intros b Hb. apply IH. apply Hmk; assumption.
  Qed.

  Lemma p_expr_list_ok : forall n ending acc, Forall R acc -> pok (Forall R) (p_expr_list rec_expr n ending acc).
  Proof.
    induction n as [|n IH]; intros ending acc Ha; cbn [p_expr_list]; [apply pok_fuel|].
    apply pok_skip. intros o. destruct (is_tok o ending); [apply pok_ret; apply Forall_rev; exact Ha|].
    eapply pok_bind; [exact Hrec|]. intros e He. apply pok_skip. intros o2.
    destruct (is_tok o2 TComma); [apply pok_skip; intros _; apply IH|apply pok_ret; apply Forall_rev]; constructor; assumption.
  Qed.

  Lemma p_obj_inits_ok : forall n acc, Forall (built_init R) acc -> pok (Forall (built_init R)) (p_obj_inits rec_expr n acc).
  Proof.
    induction n as [|n IH]; intros acc Ha; cbn [p_obj_inits]; [apply pok_fuel|].
    apply pok_skip. intros o. destruct (is_tok o TRBrace); [apply pok_ret; apply Forall_rev; exact Ha|].
    eapply pok_bind; [exact Hrec|]. intros k Hk. apply pok_skip. intros c.
    destruct (negb (is_tok c TColon)); [apply pok_fail_here|].
    eapply pok_bind; [exact Hrec|]. intros v Hv. apply pok_skip. intros o2.
    destruct (is_tok o2 TComma); [apply pok_skip; intros _; apply IH|apply pok_ret; apply Forall_rev];
      (constructor; [repeat split; assumption|exact Ha]).
  Qed.

  Lemma p_primary_ok : pok (built_primary R) (p_primary rec_expr rec_src).
  Proof.
    unfold p_primary. intros t0. revert t0. apply pok_at with (f := fun _ => _). intros _.
    apply pok_skip. intros [[k l]|]; [|apply pok_fail_here].
    destruct k; try apply pok_fail_here; try (apply pok_ret; exact I).
    - apply pok_at with (f := fun t => _). intros t1.
      eapply pok_bind; [apply p_expr_list_ok; constructor|]. intros es Hes. apply pok_skip.
      intros [[[] cl]|]; try apply pok_fail_here. apply pok_skip. intros _. apply pok_ret. exact Hes.
    - apply pok_at with (f := fun t => _). intros t1.
      eapply pok_bind; [apply p_obj_inits_ok; constructor|]. intros inits Hi. apply pok_skip.
      intros [[[] cl]|]; try apply pok_fail_here. apply pok_skip. intros _. apply pok_ret. exact Hi.
    - eapply pok_bind; [exact Hrec|]. intros e He. apply pok_skip.
      intros [[[] cl]|]; try apply pok_fail_at. apply pok_ret. exact He.
    - destruct (_ <=? i64_max); [apply pok_ret; exact I|apply pok_fail_at].
    - apply pok_skip. intros _. apply pok_ret. exact I.
  Qed.

  Lemma p_member_primes_ok : forall n acc, Forall (built_mprime R) acc -> pok (Forall (built_mprime R)) (p_member_primes rec_expr n acc).
  Proof.
    induction n as [|n IH]; intros acc Ha; cbn [p_member_primes]; [apply pok_fuel|].
    apply pok_skip. intros [[k l]|]; [|apply pok_ret; apply Forall_rev; exact Ha].
    destruct k; try (apply pok_ret; apply Forall_rev; exact Ha); apply pok_skip; intros _.
    - apply pok_skip. intros [[[] il]|]; try apply pok_fail_here.
      apply IH. constructor; [exists l; reflexivity|exact Ha].
    - eapply pok_bind; [exact Hrec|]. intros e He. apply pok_skip. intros [[[] cl]|]; try apply pok_fail_here.
      apply IH. constructor; [exact He|exact Ha].
    - apply pok_at with (f := fun t => _). intros t1.
      eapply pok_bind; [apply p_expr_list_ok; constructor|]. intros args Hargs. apply pok_skip.
      intros [[[] cl]|]; try apply pok_fail_here. apply IH. constructor; [apply Forall_rev; exact Hargs|exact Ha].
  Qed.

  Lemma p_member_ok : pok (built_member R) (p_member rec_expr rec_src).
  Proof.
    unfold p_member. eapply pok_bind; [apply p_primary_ok|]. intros p Hp. apply pok_at with (f := fun t => _). intros t1.
    eapply pok_bind; [apply p_member_primes_ok; constructor|]. intros ms Hms. apply pok_ret. repeat split; assumption.
  Qed.

  Lemma p_unary_ok : pok (built_unary R) (p_unary rec_expr rec_src).
  Proof.
    unfold p_unary. apply pok_skip. intros o.
    assert (Plain : pok (built_unary R) (let! m := p_member rec_expr rec_src in pret (UnMember (member_range m) m))).
    { eapply pok_bind; [apply p_member_ok|]. intros m Hm. apply pok_ret. split; [reflexivity|exact Hm]. }
    destruct (tok_of o) as [[]|]; try exact Plain;
      (apply pok_at with (f := fun t => _); intros t1; apply pok_skip; intros ops;
       eapply pok_bind; [apply p_member_ok|]; intros m Hm; apply pok_ret; split; [reflexivity|exact Hm]).
  Qed.

  Lemma level_ok {A B O} (QA : A -> Prop) (QB : B -> Prop) (opof : token -> option O) (rhs : P B) mk (un : B -> A) :
    pok QB rhs -> (forall b, QB b -> QA (un b)) -> (forall a o b, QA a -> QB b -> QA (mk a o b)) ->
    pok QA (let! u := rhs in fun t => lloop (loop_fuel t) opof rhs mk (un u) t).
  Proof.
    intros Hr Hun Hmk. eapply pok_bind; [exact Hr|]. intros u Hu. apply pok_at with (f := fun t => _). intros t1.
    apply (lloop_ok QA QB); auto.
  Qed.

  Lemma p_mult_ok : pok (built_mult R) (p_mult rec_expr rec_src).
  Proof. apply (level_ok _ (built_unary R)); [apply p_unary_ok| |]; cbn; auto. Qed.
  Lemma p_addn_ok : pok (built_addn R) (p_addn rec_expr rec_src).
  Proof. apply (level_ok _ (built_mult R)); [apply p_mult_ok| |]; cbn; auto. Qed.
  Lemma p_rel_ok : pok (built_rel R) (p_rel rec_expr rec_src).
  Proof. apply (level_ok _ (built_addn R)); [apply p_addn_ok| |]; cbn; auto. Qed.
  Lemma p_cand_ok : pok (built_cand R) (p_cand rec_expr rec_src).
  Proof. apply (level_ok _ (built_rel R)); [apply p_rel_ok| |]; cbn; auto. Qed.
  Lemma p_cor_ok : pok (built_cor R) (p_cor rec_expr rec_src).
  Proof. apply (level_ok _ (built_cand R)); [apply p_cand_ok| |]; cbn; auto. Qed.

  Lemma p_pattern_ok : pok (built_pattern R) (p_pattern rec_expr rec_src).
  Proof.
    eapply pok_ext; [apply p_pattern_eq|]. apply pok_skip. intros start. apply pok_skip. intros o.
    assert (Cmp : pok (built_pattern R) (p_cmp_pattern rec_expr rec_src start)).
    { unfold p_cmp_pattern. apply pok_skip. intros o0. apply pok_skip. intros op. apply pok_skip. intros ope.
      eapply pok_bind; [apply p_cor_ok|]. intros c Hc. apply pok_skip. intros e. apply pok_ret. exact Hc. }
    destruct (ident_tok o) as [i|]; [|exact Cmp]. unfold p_ident_pattern.
    destruct (bytes_eqb i _); [apply pok_skip; intros _; apply pok_skip; intros e; apply pok_ret; exact I|].
    destruct (is_type_name i) eqn:Ht; [|exact Cmp]. destruct (mtype_of i); [|exact Cmp].
    apply pok_skip. intros _. apply pok_skip. intros e. apply pok_ret. exact Ht.
  Qed.

  Lemma p_cases_ok : forall n comma rng acc, Forall (built_case R) acc ->
    pok (fun rc => Forall (built_case R) (snd rc)) (p_cases rec_expr rec_src n comma rng acc).
  Proof.
    induction n as [|n IH]; intros comma rng acc Ha; [apply pok_fuel|]. eapply pok_ext; [apply p_cases_eq|].
    apply pok_skip. intros rb. destruct (rbrace_tok rb); [apply pok_ret; apply Forall_rev; exact Ha|]. unfold p_case.
    destruct (negb comma); [apply pok_fail_here|]. apply pok_skip. intros ct.
    destruct (negb (is_tok ct TCase)); [apply pok_fail_here|]. eapply pok_bind; [apply p_pattern_ok|]. intros pat Hp.
    apply pok_skip. intros col. destruct (negb (is_tok col TColon)); [apply pok_fail_here|].
    eapply pok_bind; [exact Hrec|]. intros e He. apply pok_skip. intros cm.
    destruct (is_tok cm TComma); [apply pok_skip; intros _|]; apply IH; (constructor; [repeat split; assumption|exact Ha]).
  Qed.

  Lemma p_expr_body_ok : pok (built_expr_body R) (p_expr_body rec_expr rec_src).
  Proof.
    eapply pok_ext; [apply p_expr_body_eq|]. apply pok_skip. intros o. destruct (match_tok o) as [ml|].
    - unfold p_match. apply pok_skip. intros _. eapply pok_bind; [exact Hrec|]. intros c Hc.
      apply pok_skip. intros lb. destruct (negb (is_tok lb TLBrace)); [apply pok_fail_here|].
      apply pok_at with (f := fun t => _). intros t1. eapply pok_bind; [apply p_cases_ok; constructor|]. intros rc Hrc.
      apply pok_skip. intros _. apply pok_ret. split; assumption.
    - unfold p_cond. eapply pok_bind; [apply p_cor_ok|]. intros l Hl. apply pok_skip. intros q.
      destruct (is_tok q TQuestion); [|apply pok_ret; split; [reflexivity|exact Hl]].
      apply pok_skip. intros _. eapply pok_bind; [apply p_cor_ok|]. intros tc Htc.
      apply pok_skip. intros col. destruct (negb (is_tok col TColon)); [apply pok_fail_here|].
      eapply pok_bind; [exact Hrec|]. intros fc Hfc. apply pok_ret. repeat split; assumption.
  Qed.
End Levels.

Theorem parser_built : forall fuel depth t e t', p_expr_at fuel depth t = POk e t' -> built fuel e.
Proof.
  induction fuel as [|f IH]; intros depth t e t' H; [exact I|]. cbn [p_expr_at] in H.
  destruct (32 <=? depth); [discriminate H|].
  eapply (p_expr_body_ok (p_expr_at f (depth + 1)) _ (built f)); [|exact H]. intros t0 e0 t0' H0. eapply IH; eauto.
Qed.

(** The type table is keyed by ASCII names, which are their own UTF-8 encoding. *)
Lemma type_name_ascii i : is_type_name i = true -> is_type_name (utf8_encode i) = true.
Proof.
  unfold is_type_name, type_table. cbn [assoc].
  repeat match goal with |- context [if bytes_eqb i ?k then _ else _] =>
    let E := fresh "E" in destruct (bytes_eqb i k) eqn:E; [apply bytes_eqb_eq in E; subst i; intros _; vm_compute; reflexivity|] end.
  intros H; discriminate H.
Qed.

Section BuiltTp.
  Variables R R' : expr -> Prop.
  Hypothesis HR : forall e, R e -> R' e.

  Lemma built_tp_primary p : built_primary R p -> tp_primary R' p.
  Proof.
    destruct p; cbn; auto; apply Forall_impl; auto. intros [ri k v] (_ & Hk & Hv). auto.
  Qed.
  Lemma built_tp_member m : built_member R m -> tp_member R' m.
  Proof.
    destruct m as [r p ms]. intros (_ & Hp & Hms). split; [apply built_tp_primary; exact Hp|].
    revert Hms. apply Forall_impl. intros [r' ir name|r' args|r' e]; cbn; auto. apply Forall_impl; auto.
  Qed.
  Lemma built_tp_unary u : built_unary R u -> tp_unary R' u.
  Proof. destruct u; intros [_ H]; apply built_tp_member; exact H. Qed.
  Lemma built_tp_mult e : built_mult R e -> tp_mult R' e.
  Proof. induction e; cbn; intros H; [split; [apply IHe|apply built_tp_unary]|apply built_tp_unary]; apply H. Qed.
  Lemma built_tp_addn e : built_addn R e -> tp_addn R' e.
  Proof. induction e; cbn; intros H; [split; [apply IHe|apply built_tp_mult]|apply built_tp_mult]; apply H. Qed.
  Lemma built_tp_rel e : built_rel R e -> tp_rel R' e.
  Proof. induction e; cbn; intros H; [split; [apply IHe|apply built_tp_addn]|apply built_tp_addn]; apply H. Qed.
  Lemma built_tp_cand e : built_cand R e -> tp_cand R' e.
  Proof. induction e; cbn; intros H; [split; [apply IHe|apply built_tp_rel]|apply built_tp_rel]; apply H. Qed.
  Lemma built_tp_cor e : built_cor R e -> tp_cor R' e.
  Proof. induction e; cbn; intros H; [split; [apply IHe|apply built_tp_cand]|apply built_tp_cand]; apply H. Qed.
  Lemma built_tp_expr_body e : built_expr_body R e -> tp_expr_body R' e.
  Proof.
    destruct e as [r c t f|r c cases|r c]; cbn.
    - intros (_ & Hc & Ht & Hf). auto using built_tp_cor.
    - intros [Hc Hcs]. split; [auto|]. revert Hcs. apply Forall_impl. intros [r' p arm] (_ & Hp & Ha). split; [|auto].
      destruct p; cbn in *; auto using built_tp_cor, type_name_ascii.
    - intros [_ Hc]. apply built_tp_cor. exact Hc.
  Qed.
End BuiltTp.

Lemma built_tp : forall fuel e, built fuel e -> tp fuel e.
Proof. induction fuel as [|f IH]; intros e H; [exact I|]. exact (built_tp_expr_body _ _ IH e H). Qed.

(** Every tree the parser returns: a type pattern carries the name of a built-in type, at every depth. *)
Theorem parser_type_patterns : forall fuel depth t e t', p_expr_at fuel depth t = POk e t' -> tp fuel e.
Proof. intros fuel depth t e t' H. apply built_tp. eapply parser_built; eauto. Qed.
