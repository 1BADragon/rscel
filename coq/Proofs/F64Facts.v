(* Proofs/F64Facts.v — the SpecFloat operations used by the model are
   Flocq's IEEE-754 binary64 operations (round to nearest even), whose
   correctness theorems (Bplus_correct, Bmult_correct, Bdiv_correct,
   Bsqrt_correct, binary_normalize_correct) then apply. *)
From Coq Require Import ZArith Bool Reals Floats.SpecFloat.
From Flocq Require Import Core.Zaux IEEE754.BinarySingleNaN.
From Rscel Require Import Base.F64.
Open Scope Z_scope.

Lemma Hprec64 : FLX.Prec_gt_0 53. Proof. reflexivity. Qed.
Lemma Hmax64 : Prec_lt_emax 53 1024. Proof. reflexivity. Qed.
#[export] Existing Instance Hprec64.
#[export] Existing Instance Hmax64.

Notation b64 := (binary_float 53 1024).

Lemma round_nearest_even_equiv s m l :
  round_nearest_even m l = choice_mode mode_NE s m l.
Proof.
case l; [reflexivity|intro c].
case c; [ | reflexivity..].
now simpl; unfold Round.cond_incr; case Z.even.
Qed.

Lemma binary_round_aux_equiv sx mx ex lx :
  SpecFloat.binary_round_aux 53 1024 sx mx ex lx
  = binary_round_aux 53 1024 mode_NE sx mx ex lx.
Proof.
unfold SpecFloat.binary_round_aux, binary_round_aux.
set (mrse' := shr_fexp _ _ _ _ _).
case mrse'; intros mrs' e'; simpl.
now rewrite (round_nearest_even_equiv sx).
Qed.

Lemma binary_round_equiv s m e :
  SpecFloat.binary_round 53 1024 s m e =
  binary_round 53 1024 mode_NE s m e.
Proof.
unfold SpecFloat.binary_round, binary_round, shl_align_fexp.
set (mez := shl_align _ _ _); case mez as [mz ez].
apply binary_round_aux_equiv.
Qed.

Lemma binary_normalize_equiv m e szero :
  SpecFloat.binary_normalize 53 1024 m e szero
  = B2SF (binary_normalize 53 1024 Hprec64 Hmax64 mode_NE m e szero).
Proof.
case m as [ | p | p].
- now simpl.
- simpl; rewrite B2SF_SF2B; apply binary_round_equiv.
- simpl; rewrite B2SF_SF2B; apply binary_round_equiv.
Qed.

Theorem f64_add_ieee (x y : b64) :
  f64_add (B2SF x) (B2SF y) = B2SF (Bplus mode_NE x y).
Proof.
unfold f64_add.
case x as [sx|sx| |sx mx ex Bx]; case y as [sy|sy| |sy my ey By];
  [now (trivial || simpl; case Bool.eqb).. | ].
apply binary_normalize_equiv.
Qed.

Theorem f64_sub_ieee (x y : b64) :
  f64_sub (B2SF x) (B2SF y) = B2SF (Bminus mode_NE x y).
Proof.
unfold f64_sub.
case x as [sx|sx| |sx mx ex Bx]; case y as [sy|sy| |sy my ey By];
  [now (trivial || simpl; case Bool.eqb).. | ].
simpl. unfold Zminus. rewrite <- cond_Zopp_negb.
apply binary_normalize_equiv.
Qed.

Theorem f64_mul_ieee (x y : b64) :
  f64_mul (B2SF x) (B2SF y) = B2SF (Bmult mode_NE x y).
Proof.
unfold f64_mul.
case x as [sx|sx| |sx mx ex Bx]; case y as [sy|sy| |sy my ey By]; [now trivial.. | ].
simpl. rewrite B2SF_SF2B. apply binary_round_aux_equiv.
Qed.

Theorem f64_div_ieee (x y : b64) :
  f64_div (B2SF x) (B2SF y) = B2SF (Bdiv mode_NE x y).
Proof.
unfold f64_div.
case x as [sx|sx| |sx mx ex Bx]; case y as [sy|sy| |sy my ey By];
  [now (trivial || simpl; case Bool.eqb).. | ].
simpl. rewrite B2SF_SF2B.
set (melz := SFdiv_core_binary _ _ _ _ _ _).
case melz as [[mz ez] lz].
apply binary_round_aux_equiv.
Qed.

Theorem f64_sqrt_ieee (x : b64) :
  f64_sqrt (B2SF x) = B2SF (Bsqrt mode_NE x).
Proof.
unfold f64_sqrt.
case x as [sx|sx| |sx mx ex Bx]; [now (trivial || case sx).. | ].
case sx; [reflexivity | ].
simpl. rewrite B2SF_SF2B.
set (melz := SFsqrt_core_binary _ _ _ _).
case melz as [[mz ez] lz].
apply binary_round_aux_equiv.
Qed.

Theorem f64_neg_ieee (x : b64) : f64_neg (B2SF x) = B2SF (Bopp x).
Proof. now case x. Qed.

Theorem f64_cmp_ieee (x y : b64) : f64_cmp (B2SF x) (B2SF y) = Bcompare x y.
Proof. reflexivity. Qed.

Theorem f64_of_Z_ieee (z : Z) :
  f64_of_Z z = B2SF (binary_normalize 53 1024 Hprec64 Hmax64 mode_NE z 0 false).
Proof. apply binary_normalize_equiv. Qed.

Lemma valid_is_B2SF (x : f64) : f64_valid x = true -> exists b : b64, B2SF b = x.
Proof. intro H. exists (SF2B x H). apply B2SF_SF2B. Qed.

Lemma valid_lift2 (op : f64 -> f64 -> f64) (B : b64 -> b64 -> b64) :
  (forall x y, op (B2SF x) (B2SF y) = B2SF (B x y)) ->
  forall x y, f64_valid x = true -> f64_valid y = true -> f64_valid (op x y) = true.
Proof.
intros H x y Hx Hy. destruct (valid_is_B2SF x Hx) as [bx <-], (valid_is_B2SF y Hy) as [by_ <-].
rewrite H. apply valid_binary_B2SF.
Qed.

Lemma f64_add_valid x y : f64_valid x = true -> f64_valid y = true -> f64_valid (f64_add x y) = true.
Proof. exact (valid_lift2 _ _ f64_add_ieee x y). Qed.
Lemma f64_sub_valid x y : f64_valid x = true -> f64_valid y = true -> f64_valid (f64_sub x y) = true.
Proof. exact (valid_lift2 _ _ f64_sub_ieee x y). Qed.
Lemma f64_mul_valid x y : f64_valid x = true -> f64_valid y = true -> f64_valid (f64_mul x y) = true.
Proof. exact (valid_lift2 _ _ f64_mul_ieee x y). Qed.
Lemma f64_div_valid x y : f64_valid x = true -> f64_valid y = true -> f64_valid (f64_div x y) = true.
Proof. exact (valid_lift2 _ _ f64_div_ieee x y). Qed.
Lemma f64_neg_valid x : f64_valid x = true -> f64_valid (f64_neg x) = true.
Proof. now destruct x. Qed.
Lemma f64_of_Z_valid z : f64_valid (f64_of_Z z) = true.
Proof. rewrite f64_of_Z_ieee. apply valid_binary_B2SF. Qed.
