(* Proofs/Chains.v — C05: chains a || b || c ... and a && b && c ... as the compiler emits them: one end
   label shared by every link.  The value of the chain is the left fold of the operator over the tested
   operands, evaluation stops at the first operand that decides, and nothing after it runs.  The binary
   a || b and a && b are the chains of one link. *)
From Coq Require Import ZArith List Bool Lia Arith.
From Rscel Require Import Base.Prims Base.F64 Base.Text Model.Value Model.Ops Model.Dispatch Model.Funcs
     Model.Interp Spec.WfCode Proofs.VM Proofs.Blocks.
Import ListNotations.
Open Scope Z_scope.

Section Chains.
  Variable rs : runner.
  Variable E : env.
  Variable d : nat.
  Variable w : bool.                         (* the jump condition: true for ||, false for && *)
  Variable op : instr.
  Variable opf : value -> value -> value.
  Hypothesis Hstep : forall st, step rs E d op st = bin rs E d opf st.
  Hypothesis Hplain : forall a b, plainv (opf a b).

  (** every link jumps to the end of the whole chain *)
  Fixpoint links (cs : list code) : code :=
    match cs with
    | [] => []
    | c :: r => [ITest; IDup; IJmpCond w (Z.of_nat (length c + 1 + length (links r)))] ++ c ++ [op] ++ links r
    end.
  Definition chain_code (c1 : code) (cs : list code) : code := c1 ++ links cs.

  Definition decides (t : value) : bool :=
    match t with VBool b => Bool.eqb b w | VErr _ => negb w | _ => false end.

  Inductive chain_run : value -> log -> list code -> value -> log -> Prop :=
  | cr_nil acc lg : chain_run acc lg [] acc lg
  | cr_stop acc lg c r : decides (tested acc) = true -> chain_run acc lg (c :: r) (tested acc) lg
  | cr_step acc lg c r svb lg1 vb lg2 res lg3 :
      decides (tested acc) = false ->
      pushes rs E d c lg svb lg1 -> resolves rs E d svb lg1 vb lg2 ->
      chain_run (opf (tested acc) vb) lg2 r res lg3 ->
      chain_run acc lg (c :: r) res lg3.

  (** the first link: TEST; DUP; JMP-if-[w] to the end ([decides] is [jumps w]) *)
  Lemma link_head c r sv lg0 acc lg st res :
    resolves rs E d sv lg0 acc lg ->
    yields rs E d (if decides (tested acc) then [] else c ++ [op] ++ links r) (SVal (tested acc) :: st) lg res ->
    yields rs E d (links (c :: r)) (sv :: st) lg0 res.
  Proof.
    intros Hr H. cbn [links app].
    apply (test_dup rs E d w _ (c ++ op :: links r) [] _ sv lg0 acc lg st res Hr);
      [symmetry; apply app_nil_r|len|exact H].
  Qed.

  (** The first TEST resolves the value the links start from; an empty chain leaves it as it is. *)
  Lemma links_run : forall cs acc lg res lg', chain_run acc lg cs res lg' ->
    forall sv lg0 st, resolves rs E d sv lg0 acc lg -> (cs = [] -> sv = SVal acc /\ lg0 = lg) ->
    yields rs E d (links cs) (sv :: st) lg0 (ROk (SVal res :: st), lg').
  Proof.
    induction 1 as [acc lg|acc lg c r Hd|acc lg c r svb lg1 vb lg2 res lg3 Hd Hc Hrb Hrun IH];
      intros sv lg0 st Hres Hnil.
    - destruct (Hnil eq_refl) as [-> ->]. apply yields_nil.
    - apply (link_head c r sv lg0 acc lg st _ Hres). rewrite Hd. apply yields_nil.
    - apply (link_head c r sv lg0 acc lg st _ Hres). rewrite Hd.
      apply yields_app with (1 := pushes_yields rs E d c lg svb lg1 _ Hc).
      eapply yields_cons.
      + rewrite Hstep. apply bin_resolves; [exact Hrb|apply tested_plain].
      + apply IH; [apply resolves_plain, Hplain|auto].
  Qed.

  Lemma link_fails c r sv lg0 acc lg st e lg' :
    resolves rs E d sv lg0 acc lg -> decides (tested acc) = false -> fails rs E d c lg e lg' ->
    yields rs E d (links (c :: r)) (sv :: st) lg0 (RErr e, lg').
  Proof.
    intros Hr Hd Hf. apply (link_head c r sv lg0 acc lg st _ Hr). rewrite Hd.
    apply yields_err, fails_yields, Hf.
  Qed.

  (** The chain  c1 OP c2 OP ... OP cn  (n >= 1): the first operand is resolved by the first TEST. *)
  Theorem chain_evaluates c1 cs lg sva lg1 va lg2 res lg3 :
    pushes rs E d c1 lg sva lg1 -> resolves rs E d sva lg1 va lg2 -> cs <> [] ->
    chain_run va lg2 cs res lg3 ->
    forall st, exists f, loop rs f E d (chain_code c1 cs) O st lg = (ROk (SVal res :: st), lg3).
  Proof.
    intros Hc Hra Hne Hrun st. apply yields_run.
    apply yields_app with (1 := pushes_yields rs E d c1 lg sva lg1 st Hc).
    apply (links_run cs va lg2 res lg3 Hrun sva lg1 st Hra). intros Ecs. contradiction.
  Qed.

  (** nothing after the deciding operand runs: the rest of the chain may be ANY code *)
  Corollary chain_stops_early c1 c r lg sva lg1 va lg2 :
    pushes rs E d c1 lg sva lg1 -> resolves rs E d sva lg1 va lg2 -> decides (tested va) = true ->
    forall st, exists f, loop rs f E d (chain_code c1 (c :: r)) O st lg = (ROk (SVal (tested va) :: st), lg2).
  Proof. intros Hp Hr Hd. eapply chain_evaluates; eauto; [discriminate|]. apply cr_stop. exact Hd. Qed.

  Lemma chain_fails c1 c r lg sva lg1 va lg2 e lg3 :
    pushes rs E d c1 lg sva lg1 -> resolves rs E d sva lg1 va lg2 -> decides (tested va) = false ->
    fails rs E d c lg2 e lg3 ->
    forall st, exists f, loop rs f E d (chain_code c1 (c :: r)) O st lg = (RErr e, lg3).
  Proof.
    intros Hc Hra Hd Hf st. apply yields_run.
    apply yields_app with (1 := pushes_yields rs E d c1 lg sva lg1 st Hc).
    exact (link_fails c r sva lg1 va lg2 st e lg3 Hra Hd Hf).
  Qed.
End Chains.

Lemma or_plainv a b : plainv (or_ a b).
Proof.
  unfold or_. destruct (is_err a) eqn:Ea; [destruct (is_truthy b); [exact I|destruct a; try discriminate; exact I]|].
  destruct (is_err b) eqn:Eb; [destruct (is_truthy a); [exact I|destruct b; try discriminate; exact I]|exact I].
Qed.
Lemma and_plainv a b : plainv (and_ a b).
Proof.
  unfold and_, error_prop_or. destruct (is_err a) eqn:Ea; [destruct a; try discriminate; exact I|].
  destruct (is_err b) eqn:Eb; [destruct b; try discriminate; exact I|exact I].
Qed.

Definition or_chain_code := chain_code true IOr.
Definition and_chain_code := chain_code false IAnd.

Theorem or_chain_evaluates rs E d c1 cs lg sva lg1 va lg2 res lg3 :
  pushes rs E d c1 lg sva lg1 -> resolves rs E d sva lg1 va lg2 -> cs <> [] ->
  chain_run rs E d true or_ va lg2 cs res lg3 ->
  forall st, exists f, loop rs f E d (or_chain_code c1 cs) O st lg = (ROk (SVal res :: st), lg3).
Proof. apply chain_evaluates; [reflexivity|apply or_plainv]. Qed.

Theorem and_chain_evaluates rs E d c1 cs lg sva lg1 va lg2 res lg3 :
  pushes rs E d c1 lg sva lg1 -> resolves rs E d sva lg1 va lg2 -> cs <> [] ->
  chain_run rs E d false and_ va lg2 cs res lg3 ->
  forall st, exists f, loop rs f E d (and_chain_code c1 cs) O st lg = (ROk (SVal res :: st), lg3).
Proof. apply chain_evaluates; [reflexivity|apply and_plainv]. Qed.

Lemma or_code_chain ca cb : or_code ca cb = or_chain_code ca [cb].
Proof.
  unfold or_code, or_chain_code, chain_code. cbn [links length app].
  rewrite Nat.add_0_r, Nat2Z.inj_add. reflexivity.
Qed.

Lemma and_code_chain ca cb : and_code ca cb = and_chain_code ca [cb].
Proof.
  unfold and_code, and_chain_code, chain_code. cbn [links length app].
  rewrite Nat.add_0_r, Nat2Z.inj_add. reflexivity.
Qed.

Section Binary.
  Variable rs : runner.
  Variable E : env.
  Variable d : nat.

  (** Short circuit: when [a] is truthy, [a || b] is true and NOTHING of [b] runs:
      the result does not depend on what code [cb] is at all. *)
  Theorem or_short_circuit ca cb lg sva lg1 va lg2 :
    pushes rs E d ca lg sva lg1 -> resolves rs E d sva lg1 va lg2 ->
    is_err va = false -> is_truthy va = true ->
    forall st, exists f, loop rs f E d (or_code ca cb) O st lg = (ROk (SVal (VBool true) :: st), lg2).
  Proof.
    intros Hp Hr Hne Htr. rewrite or_code_chain, <- (tested_truthy va Hne Htr).
    apply (chain_stops_early rs E d true IOr or_ (fun _ => eq_refl) or_plainv ca cb [] lg sva lg1 va lg2 Hp Hr).
    rewrite (tested_truthy va Hne Htr). reflexivity.
  Qed.

  (** [a && b]: when [a] is falsy or fails, the result is [false] resp. the
      failure of [a], and nothing of [b] runs. *)
  Theorem and_short_circuit ca cb lg sva lg1 va lg2 :
    pushes rs E d ca lg sva lg1 -> resolves rs E d sva lg1 va lg2 ->
    (is_err va = true \/ is_truthy va = false) ->
    forall st, exists f,
      loop rs f E d (and_code ca cb) O st lg =
      (ROk (SVal (if is_err va then va else VBool false) :: st), lg2).
  Proof.
    intros Hp Hr Hcase. destruct (tested_falsy va Hcase) as [Et Hd]. rewrite and_code_chain, <- Et.
    apply (chain_stops_early rs E d false IAnd and_ (fun _ => eq_refl) and_plainv ca cb [] lg sva lg1 va lg2 Hp Hr).
    destruct Hd as [[e ->]| ->]; reflexivity.
  Qed.

  (** [a || b] when [a] does not decide: [b] is evaluated and the result is
      [or] of the tested left value and the right value (Ops.or_: true when
      either side is truthy, otherwise the failure / false). *)
  Theorem or_evaluates_rhs ca cb lg sva lg1 va lg2 svb lg3 vb lg4 :
    pushes rs E d ca lg sva lg1 -> resolves rs E d sva lg1 va lg2 ->
    (is_err va = true \/ is_truthy va = false) ->
    pushes rs E d cb lg2 svb lg3 -> resolves rs E d svb lg3 vb lg4 ->
    forall st, exists f, loop rs f E d (or_code ca cb) O st lg = (ROk (SVal (or_ (tested va) vb) :: st), lg4).
  Proof.
    intros Hp Hr Hcase Hpb Hrb. rewrite or_code_chain.
    apply (or_chain_evaluates rs E d ca [cb] lg sva lg1 va lg2 _ lg4 Hp Hr); [discriminate|].
    eapply cr_step; [|exact Hpb|exact Hrb|apply cr_nil].
    destruct (tested_falsy va Hcase) as [_ [[e ->]| ->]]; reflexivity.
  Qed.

  (** ... and when the right operand fails hard, the whole expression fails with it. *)
  Theorem or_rhs_fails ca cb lg sva lg1 va lg2 e lg3 :
    pushes rs E d ca lg sva lg1 -> resolves rs E d sva lg1 va lg2 ->
    (is_err va = true \/ is_truthy va = false) ->
    fails rs E d cb lg2 e lg3 ->
    forall st, exists f, loop rs f E d (or_code ca cb) O st lg = (RErr e, lg3).
  Proof.
    intros Hp Hr Hcase Hf. rewrite or_code_chain.
    apply (chain_fails rs E d true IOr ca cb [] lg sva lg1 va lg2 e lg3 Hp Hr); [|exact Hf].
    destruct (tested_falsy va Hcase) as [_ [[e' ->]| ->]]; reflexivity.
  Qed.

  (** [a && b] when [a] is truthy: [b] is evaluated and the result is [and_] of the two values *)
  Theorem and_evaluates_rhs ca cb lg sva lg1 va lg2 svb lg3 vb lg4 :
    pushes rs E d ca lg sva lg1 -> resolves rs E d sva lg1 va lg2 ->
    is_err va = false -> is_truthy va = true ->
    pushes rs E d cb lg2 svb lg3 -> resolves rs E d svb lg3 vb lg4 ->
    forall st, exists f, loop rs f E d (and_code ca cb) O st lg = (ROk (SVal (and_ (VBool true) vb) :: st), lg4).
  Proof.
    intros Hp Hr Hne Htr Hpb Hrb. rewrite and_code_chain, <- (tested_truthy va Hne Htr).
    apply (and_chain_evaluates rs E d ca [cb] lg sva lg1 va lg2 _ lg4 Hp Hr); [discriminate|].
    eapply cr_step; [|exact Hpb|exact Hrb|apply cr_nil].
    rewrite (tested_truthy va Hne Htr). reflexivity.
  Qed.

  Theorem and_rhs_fails ca cb lg sva lg1 va lg2 e lg3 :
    pushes rs E d ca lg sva lg1 -> resolves rs E d sva lg1 va lg2 ->
    is_err va = false -> is_truthy va = true ->
    fails rs E d cb lg2 e lg3 ->
    forall st, exists f, loop rs f E d (and_code ca cb) O st lg = (RErr e, lg3).
  Proof.
    intros Hp Hr Hne Htr Hf. rewrite and_code_chain.
    apply (chain_fails rs E d false IAnd ca cb [] lg sva lg1 va lg2 e lg3 Hp Hr); [|exact Hf].
    rewrite (tested_truthy va Hne Htr). reflexivity.
  Qed.
End Binary.
