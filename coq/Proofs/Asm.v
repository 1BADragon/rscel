(* Proofs/Asm.v — C10: the label assembler.  A structured view of pre-resolved code (a tree whose
   leaves are instructions, label jumps, labels and already-resolved chunks) with a stack-height
   discipline; when the discipline holds and every label is defined once, after its uses, [resolve]
   succeeds and the resolved code passes the validator of Spec/WfCode.v with an explicit height
   assignment. *)
From Coq Require Import ZArith List Bool Lia Arith Permutation.
From Rscel Require Import Base.Prims Model.Value Model.Compile Spec.WfCode Proofs.VM.
Import ListNotations.
Local Open Scope nat_scope.

Definition is_jump (i : instr) : bool := match i with IJmp _ | IJmpCond _ _ => true | _ => false end.

Inductive ptree :=
| TNil
| TI (i : instr)                                   (* an instruction that is not a jump *)
| TJ (l : nat)
| TJC (w : bool) (l : nat)
| TL (l : nat)
| TChunk (bc : code) (Hb : list (option nat))      (* resolved code of a whole sub-program, with its certificate *)
| TSeq (a b : ptree).

Fixpoint flat (t : ptree) : pcode :=
  match t with
  | TNil => []
  | TI i => [PBc i]
  | TJ l => [PJmp l]
  | TJC w l => [PJmpCond w l]
  | TL l => [PLabel l]
  | TChunk bc _ => of_code bc
  | TSeq a b => flat a ++ flat b
  end.

Fixpoint tsize (t : ptree) : nat :=
  match t with
  | TNil | TL _ => 0
  | TI _ | TJ _ | TJC _ _ => 1
  | TChunk bc _ => length bc
  | TSeq a b => tsize a + tsize b
  end.

Fixpoint tlabs (t : ptree) (p : nat) : list (nat * nat) :=
  match t with
  | TL l => [(l, p)]
  | TSeq a b => tlabs a p ++ tlabs b (p + tsize a)
  | _ => []
  end.
Definition tdefs (t : ptree) : list nat := map fst (tlabs t 0).

(** every jump goes to a label defined later: in the rest of the tree or in [later] *)
Fixpoint tfwd (later : list nat) (t : ptree) : Prop :=
  match t with
  | TJ l | TJC _ l => In l later
  | TSeq a b => tfwd (tdefs b ++ later) a /\ tfwd later b
  | _ => True
  end.

Fixpoint tnested (wfn : code -> bool) (t : ptree) : Prop :=
  match t with
  | TI i => is_jump i = false /\ match i with IPush (VCode b) => wfn b = true | _ => True end
  | TChunk bc Hb => validate wfn bc Hb = true
  | TSeq a b => tnested wfn a /\ tnested wfn b
  | _ => True
  end.

Definition lmap := nat -> option nat.
Definition upd (G : lmap) (l k : nat) : lmap := fun x => if Nat.eqb x l then Some k else G x.
Definition constrain (G : lmap) (l k : nat) : option lmap :=
  match G l with
  | None => Some (upd G l k)
  | Some k0 => if Nat.eqb k0 k then Some G else None
  end.

(** [h]: height on entry, [None] when no path reaches this point (only a label may follow) *)
Fixpoint tcheck (t : ptree) (h : option nat) (G : lmap) : option (option nat * lmap) :=
  match t with
  | TNil => Some (h, G)
  | TI i =>
      match h with
      | Some k => if Nat.leb (pops i) k then Some (Some (k - pops i + pushes i), G) else None
      | None => None
      end
  | TJ l =>
      match h with
      | Some k => option_map (fun G' => (None, G')) (constrain G l k)
      | None => None
      end
  | TJC _ l =>
      match h with
      | Some (S k) => option_map (fun G' => (Some k, G')) (constrain G l k)
      | _ => None
      end
  | TL l =>
      match h with
      | Some k => option_map (fun G' => (Some k, G')) (constrain G l k)
      | None => match G l with Some k => Some (Some k, G) | None => None end
      end
  | TChunk _ _ =>
      match h with Some k => Some (Some (S k), G) | None => None end
  | TSeq a b =>
      match tcheck a h G with
      | Some (h1, G1) => tcheck b h1 G1
      | None => None
      end
  end.

Fixpoint tck (G : lmap) (t : ptree) (h : option nat) : option (option nat) :=
  match t with
  | TNil => Some h
  | TI i =>
      match h with
      | Some k => if Nat.leb (pops i) k then Some (Some (k - pops i + pushes i)) else None
      | None => None
      end
  | TJ l =>
      match h, G l with
      | Some k, Some k0 => if Nat.eqb k0 k then Some None else None
      | _, _ => None
      end
  | TJC _ l =>
      match h, G l with
      | Some (S k), Some k0 => if Nat.eqb k0 k then Some (Some k) else None
      | _, _ => None
      end
  | TL l =>
      match G l with
      | Some k0 => match h with
                   | Some k => if Nat.eqb k0 k then Some (Some k) else None
                   | None => Some (Some k0)
                   end
      | None => None
      end
  | TChunk _ _ => match h with Some k => Some (Some (S k)) | None => None end
  | TSeq a b => match tck G a h with Some h1 => tck G b h1 | None => None end
  end.

Definition extends (G G' : lmap) : Prop := forall l k, G l = Some k -> G' l = Some k.

Lemma extends_refl G : extends G G. Proof. intros l k H; exact H. Qed.
Lemma extends_trans G1 G2 G3 : extends G1 G2 -> extends G2 G3 -> extends G1 G3.
Proof. intros A B l k H. auto. Qed.

Lemma constrain_spec G l k G' : constrain G l k = Some G' -> extends G G' /\ G' l = Some k.
Proof.
  unfold constrain. destruct (G l) as [k0|] eqn:E.
  - destruct (Nat.eqb_spec k0 k); [|discriminate]. intros H. injection H as <-. subst. split; [apply extends_refl|exact E].
  - intros H. injection H as <-. split.
    + intros x kx Hx. unfold upd. destruct (Nat.eqb_spec x l); [subst; congruence|exact Hx].
    + unfold upd. rewrite Nat.eqb_refl. reflexivity.
Qed.

(** the three items that constrain a label (a jump, a conditional jump, a label met on a live path) *)
Lemma constrain_step (x : option nat) G l k h' G' :
  option_map (fun G1 => (x, G1)) (constrain G l k) = Some (h', G') -> h' = x /\ extends G G' /\ G' l = Some k.
Proof.
  destruct (constrain G l k) as [G1|] eqn:C; [|discriminate]. intros H. injection H as <- <-.
  split; [reflexivity|exact (constrain_spec _ _ _ _ C)].
Qed.

Lemma tcheck_extends : forall t h G h' G', tcheck t h G = Some (h', G') -> extends G G'.
Proof.
  induction t as [|i|l|w l|l|bc Hb|a IHa b IHb]; intros h G h' G' H; cbn [tcheck] in H.
  - injection H as _ <-. apply extends_refl.
  - destruct h as [k|]; [|discriminate]. destruct (Nat.leb (pops i) k); [|discriminate]. injection H as _ <-. apply extends_refl.
  - destruct h as [k|]; [|discriminate]. apply (constrain_step _ _ _ _ _ _ H).
  - destruct h as [[|k]|]; try discriminate. apply (constrain_step _ _ _ _ _ _ H).
  - destruct h as [k|].
    + apply (constrain_step _ _ _ _ _ _ H).
    + destruct (G l); [|discriminate]. injection H as _ <-. apply extends_refl.
  - destruct h as [k|]; [|discriminate]. injection H as _ <-. apply extends_refl.
  - destruct (tcheck a h G) as [[h1 G1]|] eqn:A; [|discriminate].
    eapply extends_trans; [eapply IHa; eauto|eapply IHb; eauto].
Qed.

Lemma tcheck_tck : forall t h G h' G', tcheck t h G = Some (h', G') ->
  forall GG, extends G' GG -> tck GG t h = Some h'.
Proof.
  induction t as [|i|l|w l|l|bc Hb|a IHa b IHb]; intros h G h' G' H GG Hext; cbn [tcheck] in H; cbn [tck].
  - injection H as <- _. reflexivity.
  - destruct h as [k|]; [|discriminate]. destruct (Nat.leb (pops i) k); [|discriminate]. injection H as <- _. reflexivity.
  - destruct h as [k|]; [|discriminate]. destruct (constrain_step _ _ _ _ _ _ H) as (-> & _ & E).
    rewrite (Hext l k E), Nat.eqb_refl. reflexivity.
  - destruct h as [[|k]|]; try discriminate. destruct (constrain_step _ _ _ _ _ _ H) as (-> & _ & E).
    rewrite (Hext l k E), Nat.eqb_refl. reflexivity.
  - destruct h as [k|].
    + destruct (constrain_step _ _ _ _ _ _ H) as (-> & _ & E). rewrite (Hext l k E), Nat.eqb_refl. reflexivity.
    + destruct (G l) as [k0|] eqn:E; [|discriminate]. injection H as <- <-. rewrite (Hext l k0 E). reflexivity.
  - destruct h as [k|]; [|discriminate]. injection H as <- _. reflexivity.
  - destruct (tcheck a h G) as [[h1 G1]|] eqn:A; [|discriminate].
    rewrite (IHa h G h1 G1 A GG).
    + eapply IHb; eauto.
    + eapply extends_trans; [eapply tcheck_extends; exact H|exact Hext].
Qed.

Fixpoint psize (c : pcode) : nat :=
  match c with [] => 0 | PLabel _ :: r => psize r | _ :: r => S (psize r) end.
Fixpoint plabs (c : pcode) (p : nat) : list (nat * nat) :=
  match c with
  | [] => []
  | PLabel l :: r => (l, p) :: plabs r p
  | _ :: r => plabs r (S p)
  end.

Lemma psize_app a b : psize (a ++ b) = psize a + psize b.
Proof. induction a as [|[i|l|w l|l] a IH]; cbn; auto. Qed.
Lemma plabs_app a b p : plabs (a ++ b) p = plabs a p ++ plabs b (p + psize a).
Proof.
  revert p. induction a as [|x a IH]; intros p; cbn [app plabs psize].
  - rewrite Nat.add_0_r. reflexivity.
  - destruct x; rewrite IH; [f_equal; f_equal; lia..|reflexivity].
Qed.
Lemma psize_of_code bc : psize (of_code bc) = length bc.
Proof. unfold of_code. induction bc as [|i r IH]; cbn; auto. Qed.
Lemma plabs_of_code bc p : plabs (of_code bc) p = [].
Proof. unfold of_code. revert p. induction bc as [|i r IH]; intros p; cbn; auto. Qed.

Lemma psize_flat t : psize (flat t) = tsize t.
Proof.
  induction t as [|i|l|w l|l|bc Hb|a IHa b IHb]; cbn [flat tsize psize]; try reflexivity.
  - apply psize_of_code.
  - rewrite psize_app. congruence.
Qed.
Lemma plabs_flat t : forall p, plabs (flat t) p = tlabs t p.
Proof.
  induction t as [|i|l|w l|l|bc Hb|a IHa b IHb]; intros p; cbn [flat tlabs plabs]; try reflexivity.
  - apply plabs_of_code.
  - rewrite plabs_app, IHa, IHb, psize_flat. reflexivity.
Qed.

Lemma tlabs_shift t : forall p, tlabs t p = map (fun lq => (fst lq, p + snd lq)) (tlabs t 0).
Proof.
  induction t as [|i|l|w l|l|bc Hb|a IHa b IHb]; intros p; cbn [tlabs map]; try reflexivity.
  - cbn. rewrite Nat.add_0_r. reflexivity.
  - rewrite map_app, (IHa p), (IHb (p + tsize a)), (IHb (0 + tsize a)), map_map. f_equal.
    apply map_ext. intros [l q]. cbn. f_equal. lia.
Qed.
Lemma tdefs_labs t p : map fst (tlabs t p) = tdefs t.
Proof. unfold tdefs. rewrite (tlabs_shift t p), map_map. reflexivity. Qed.
Lemma tdefs_seq a b : tdefs (TSeq a b) = tdefs a ++ tdefs b.
Proof. unfold tdefs. cbn [tlabs]. rewrite map_app. f_equal. apply tdefs_labs. Qed.

Lemma find_label_app l a b : find_label l (a ++ b) = match find_label l a with Some q => Some q | None => find_label l b end.
Proof. induction a as [|[k q] a IH]; cbn; [reflexivity|]. destruct (Nat.eqb k l); auto. Qed.

Lemma find_label_none l a : ~ In l (map fst a) -> find_label l a = None.
Proof.
  induction a as [|[k q] a IH]; cbn; [reflexivity|]. intros H. destruct (Nat.eqb_spec k l); [subst; tauto|apply IH; tauto].
Qed.

Lemma find_label_in l q a : NoDup (map fst a) -> In (l, q) a -> find_label l a = Some q.
Proof.
  induction a as [|[k q0] a IH]; cbn; [tauto|]. intros Hn [E|Hin].
  - injection E as -> ->. rewrite Nat.eqb_refl. reflexivity.
  - inversion Hn as [|? ? Hk Hr]; subst. destruct (Nat.eqb_spec k l).
    + subst. exfalso. apply Hk. apply in_map_iff. exists (l, q). split; [reflexivity|exact Hin].
    + apply IH; assumption.
Qed.

Lemma find_label_some_in l q a : find_label l a = Some q -> In (l, q) a.
Proof.
  induction a as [|[k q0] a IH]; cbn; [discriminate|]. destruct (Nat.eqb_spec k l).
  - intros E. injection E as <-. subst. left. reflexivity.
  - intros E. right. auto.
Qed.

Lemma existsb_key l acc : existsb (fun kv : nat * nat => Nat.eqb (fst kv) l) acc = true <-> In l (map fst acc).
Proof.
  rewrite existsb_exists. split.
  - intros ([k q] & Hin & E). cbn in E. apply Nat.eqb_eq in E. subst. apply in_map_iff. exists (l, q). auto.
  - intros H. apply in_map_iff in H. destruct H as ([k q] & E & Hin). cbn in E. subst. exists (l, q). split; [exact Hin|apply Nat.eqb_refl].
Qed.

Lemma label_locs_spec : forall c p acc,
  NoDup (map fst (plabs c p) ++ map fst acc) ->
  label_locs c p acc = Some (rev (plabs c p) ++ acc).
Proof.
  induction c as [|[i|l|w l|l] c IH]; intros p acc Hn; cbn [label_locs plabs]; try (apply IH; exact Hn).
  - reflexivity.
  - cbn [map fst app] in Hn. inversion Hn as [|? ? Hk Hr]; subst.
    destruct (existsb (fun kv : nat * nat => Nat.eqb (fst kv) l) acc) eqn:E.
    + apply existsb_key in E. exfalso. apply Hk. apply in_or_app. right. exact E.
    + rewrite IH.
      * cbn [rev]. rewrite <- app_assoc. reflexivity.
      * cbn [map fst]. eapply Permutation_NoDup; [apply Permutation_middle|exact Hn].
Qed.

Lemma resolve_at_app c1 : forall c2 p locs,
  resolve_at (c1 ++ c2) p locs =
  match resolve_at c1 p locs with
  | Some r1 => option_map (app r1) (resolve_at c2 (p + psize c1) locs)
  | None => None
  end.
Proof.
  induction c1 as [|x c1 IH]; intros c2 p locs; cbn [app resolve_at psize].
  - rewrite Nat.add_0_r. destruct (resolve_at c2 p locs); reflexivity.
  - destruct x as [i|l|w l|l]; rewrite IH; [replace (S p + psize c1) with (p + S (psize c1)) by lia..|reflexivity].
    + destruct (resolve_at c1 (S p) locs); cbn; [|reflexivity]. destruct (resolve_at c2 _ locs); reflexivity.
    + destruct (find_label l locs), (resolve_at c1 (S p) locs); cbn; try reflexivity. destruct (resolve_at c2 _ locs); reflexivity.
    + destruct (find_label l locs), (resolve_at c1 (S p) locs); cbn; try reflexivity. destruct (resolve_at c2 _ locs); reflexivity.
Qed.

Lemma resolve_at_of_code bc : forall p locs, resolve_at (of_code bc) p locs = Some bc.
Proof. unfold of_code. induction bc as [|i r IH]; intros p locs; cbn; [reflexivity|]. rewrite IH. reflexivity. Qed.

Lemma valid_from_app wfn len H c1 : forall c2 p,
  valid_from wfn len H p (c1 ++ c2) = valid_from wfn len H p c1 && valid_from wfn len H (p + length c1) c2.
Proof.
  induction c1 as [|i c1 IH]; intros c2 p; cbn [app valid_from length].
  - rewrite Nat.add_0_r. reflexivity.
  - rewrite IH, andb_assoc. replace (S p + length c1) with (p + S (length c1)) by lia. reflexivity.
Qed.

Section Placed.
  Variable wfn : code -> bool.
  Variable LEN : nat.
  Variable H : list (option nat).
  Variable G : lmap.
  Variable locs : list (nat * nat).

  Definition entry_ok (p : nat) (h : option nat) : Prop :=
    match h with Some k => height_is H p k = true | None => True end.

  (** [H] carries, at the positions of [t] placed at [p], the entry heights of its instructions *)
  Fixpoint hts_ok (t : ptree) (p : nat) (h : option nat) : Prop :=
    match t with
    | TNil | TL _ => True
    | TI _ | TJ _ | TJC _ _ => entry_ok p h
    | TChunk bc Hb =>
        match h with
        | Some k => forall j, j <= length bc ->
                      nth_error H (p + j) = option_map (option_map (fun x => x + k)) (nth_error Hb j)
        | None => False
        end
    | TSeq a b => hts_ok a p h /\
        match tck G a h with
        | Some h1 => entry_ok (p + tsize a) h1 /\ hts_ok b (p + tsize a) h1
        | None => False
        end
    end.

  Hypothesis LP : forall l q, find_label l locs = Some q ->
    q <= LEN /\ (forall k, G l = Some k -> height_is H q k = true).

  Lemma valid_at_embed (bc : code) (Hb : list (option nat)) p k j i :
    (forall j, j <= length bc -> nth_error H (p + j) = option_map (option_map (fun x => x + k)) (nth_error Hb j)) ->
    p + length bc <= LEN -> j < length bc ->
    valid_at wfn (length bc) Hb j i = true -> valid_at wfn LEN H (p + j) i = true.
  Proof.
    intros Hseg Hfit Hj Hv. unfold valid_at in *.
    apply andb_true_iff in Hv. destruct Hv as [Hv Hhts]. apply andb_true_iff in Hv. destruct Hv as [Hnest Hrange].
    rewrite Hnest. cbn [andb].
    assert (Hrange' : match i with
                      | IJmp d | IJmpCond _ d => ((0 <=? d)%Z && (Z.of_nat (S (p + j)) + d <=? Z.of_nat LEN)%Z)
                      | _ => true end = true).
    { destruct i; try reflexivity; apply andb_true_iff in Hrange; destruct Hrange as [R1 R2];
        apply Z.leb_le in R1, R2; apply andb_true_iff; split; apply Z.leb_le; lia. }
    rewrite Hrange'. cbn [andb].
    rewrite (Hseg j (Nat.lt_le_incl _ _ Hj)).
    destruct (nth_error Hb j) as [[kb|]|] eqn:Ej; cbn [option_map]; [|reflexivity|discriminate Hhts].
    apply andb_true_iff in Hhts. destruct Hhts as [Hp Hnext]. apply Nat.leb_le in Hp.
    apply andb_true_iff. split; [apply Nat.leb_le; lia|].
    assert (Hshift : forall q kq, q <= length bc -> height_is Hb q kq = true -> height_is H (p + q) (kq + k) = true).
    { intros q kq Hq Hk. apply height_is_spec in Hk. apply height_is_spec. rewrite (Hseg q Hq), Hk. reflexivity. }
    replace (kb + k - pops i + pushes i) with (kb - pops i + pushes i + k) by lia.
    destruct i; try (replace (S (p + j)) with (p + S j) by lia; apply Hshift; [lia|exact Hnext]).
    - apply andb_true_iff in Hrange. destruct Hrange as [R1 R2]. apply Z.leb_le in R1, R2.
      replace (S (p + j) + Z.to_nat d) with (p + (S j + Z.to_nat d)) by lia. apply Hshift; [lia|exact Hnext].
    - apply andb_true_iff in Hrange. destruct Hrange as [R1 R2]. apply Z.leb_le in R1, R2.
      apply andb_true_iff in Hnext. destruct Hnext as [N1 N2]. apply andb_true_iff. split.
      + replace (S (p + j)) with (p + S j) by lia. apply Hshift; [lia|exact N1].
      + replace (S (p + j) + Z.to_nat d) with (p + (S j + Z.to_nat d)) by lia. apply Hshift; [lia|exact N2].
  Qed.

  Lemma valid_from_embed (bc : code) (Hb : list (option nat)) p k :
    (forall j, j <= length bc -> nth_error H (p + j) = option_map (option_map (fun x => x + k)) (nth_error Hb j)) ->
    p + length bc <= LEN ->
    forall c j, j + length c = length bc ->
    valid_from wfn (length bc) Hb j c = true -> valid_from wfn LEN H (p + j) c = true.
  Proof.
    intros Hseg Hfit. induction c as [|i c IH]; intros j Hj Hv; [reflexivity|].
    cbn [valid_from length] in *. apply andb_true_iff in Hv. destruct Hv as [Hi Hc]. apply andb_true_iff. split.
    - eapply valid_at_embed; eauto. lia.
    - replace (S (p + j)) with (p + S j) by lia. apply IH; [lia|exact Hc].
  Qed.

  Lemma not_jump_next i k' p : is_jump i = false ->
    height_is H (S p) k' = true ->
    match i with
    | IJmp d => height_is H (S p + Z.to_nat d) k'
    | IJmpCond _ d => height_is H (S p) k' && height_is H (S p + Z.to_nat d) k'
    | _ => height_is H (S p) k'
    end = true.
  Proof. intros Hj Hh. destruct i; try discriminate Hj; exact Hh. Qed.

  Lemma not_jump_range i p : is_jump i = false ->
    match i with
    | IJmp d | IJmpCond _ d => ((0 <=? d)%Z && (Z.of_nat (S p) + d <=? Z.of_nat LEN)%Z)
    | _ => true
    end = true.
  Proof. intros Hj. destruct i; try discriminate Hj; reflexivity. Qed.

  (** the jump [resolve_at] writes at [p] for a label at [q]: its distance is in range and leads to [q], where
      the height is the one the jump leaves *)
  Lemma jump_valid_at l p q k : find_label l locs = Some q -> G l = Some k -> S p <= q ->
    let d := (Z.of_nat q - Z.of_nat (S p))%Z in
    (height_is H p k = true -> valid_at wfn LEN H p (IJmp d) = true) /\
    (forall w, height_is H p (S k) = true -> height_is H (S p) k = true -> valid_at wfn LEN H p (IJmpCond w d) = true).
  Proof.
    intros Hl E A d. destruct (LP l q Hl) as [B Hq]. specialize (Hq k E). unfold valid_at. cbn [andb pops pushes].
    rewrite 2 (proj2 (Z.leb_le _ _)) by lia. replace (S p + Z.to_nat d) with q by lia. cbn [andb].
    split; [intros Hp|intros w Hp Hn]; apply height_is_spec in Hp; rewrite Hp; cbn [Nat.leb].
    - replace (k - 0 + 0) with k by lia. exact Hq.
    - replace (S k - 1 + 0) with k by lia. rewrite Hn, Hq. reflexivity.
  Qed.

  Lemma placed_valid : forall t p h h' later,
    tck G t h = Some h' -> tnested wfn t -> hts_ok t p h -> entry_ok p h -> entry_ok (p + tsize t) h' ->
    tfwd later t ->
    (forall l, In l later -> exists q, find_label l locs = Some q /\ p + tsize t <= q) ->
    (forall l q, In (l, q) (tlabs t p) -> find_label l locs = Some q) ->
    p + tsize t <= LEN ->
    exists code, resolve_at (flat t) p locs = Some code /\ length code = tsize t /\
                 valid_from wfn LEN H p code = true.
  Proof.
    induction t as [|i|l|w l|l|bc Hb|a IHa b IHb]; intros p h h' later Hck Hn Hh Hen Hex Hfw Hlater Hlab Hfit;
      cbn [tck tsize hts_ok tlabs tnested tfwd flat] in *.
    - exists []. repeat split; reflexivity.
    - destruct h as [k|]; [|discriminate]. destruct (Nat.leb (pops i) k) eqn:Hp; [|discriminate]. injection Hck as <-.
      destruct Hn as [Hj Hnest]. exists [i]. split; [reflexivity|]. split; [reflexivity|].
      cbn [valid_from]. rewrite andb_true_r. unfold valid_at.
      cbn in Hen. apply height_is_spec in Hen. rewrite Hen, Hp. cbn [andb].
      replace (p + 1) with (S p) in Hex by lia. cbn in Hex.
      rewrite (not_jump_next i _ p Hj Hex), (not_jump_range i p Hj), andb_true_r, andb_true_r.
      destruct i; try reflexivity. destruct v; try reflexivity. exact Hnest.
    - destruct h as [k|]; [|discriminate]. destruct (G l) as [k0|] eqn:E; [|discriminate].
      destruct (Nat.eqb_spec k0 k); [|discriminate]. subst k0.
      destruct (Hlater l Hfw) as (q & Hq & Hge). cbn [resolve_at]. rewrite Hq. eexists. split; [reflexivity|]. split; [reflexivity|].
      cbn [valid_from]. rewrite andb_true_r. apply (jump_valid_at l p q k Hq E); [lia|exact Hen].
    - destruct h as [[|k]|]; try discriminate. destruct (G l) as [k0|] eqn:E; [|discriminate].
      destruct (Nat.eqb_spec k0 k); [|discriminate]. subst k0. injection Hck as <-.
      destruct (Hlater l Hfw) as (q & Hq & Hge). cbn [resolve_at]. rewrite Hq. eexists. split; [reflexivity|]. split; [reflexivity|].
      cbn [valid_from]. rewrite andb_true_r. replace (p + 1) with (S p) in Hex by lia.
      apply (jump_valid_at l p q k Hq E); [lia|exact Hen|exact Hex].
    - exists []. repeat split; reflexivity.
    - destruct h as [k|]; [|discriminate]. rewrite resolve_at_of_code. exists bc. split; [reflexivity|]. split; [reflexivity|].
      destruct (validate_parts _ _ _ Hn) as (_ & _ & _ & Hv).
      replace p with (p + 0) at 1 by lia. eapply valid_from_embed; eauto.
    - destruct (tck G a h) as [h1|] eqn:A; [|discriminate]. destruct Hh as (Hha & Hmid & Hhb). destruct Hn as [Na Nb]. destruct Hfw as [Fa Fb].
      assert (Labb : forall l q, In (l, q) (tlabs b (p + tsize a)) -> find_label l locs = Some q)
        by (intros l q Hin; apply Hlab; apply in_or_app; right; exact Hin).
      destruct (IHa p h h1 (tdefs b ++ later) A Na Hha Hen Hmid Fa) as (ca & Ra & La & Va).
      + intros l Hin. apply in_app_or in Hin. destruct Hin as [Hin|Hin].
        * rewrite <- (tdefs_labs b (p + tsize a)) in Hin. apply in_map_iff in Hin. destruct Hin as ([l0 q] & E & Hin). cbn in E. subst l0.
          exists q. split; [apply Labb; exact Hin|].
          rewrite tlabs_shift in Hin. apply in_map_iff in Hin. destruct Hin as ([l1 q1] & E1 & _). cbn in E1. injection E1 as _ <-. lia.
        * destruct (Hlater l Hin) as (q & Hq & Hge). exists q. split; [exact Hq|lia].
      + intros l q Hin. apply Hlab. apply in_or_app. left. exact Hin.
      + lia.
      + destruct (IHb (p + tsize a) h1 h' later Hck Nb Hhb Hmid) as (cb & Rb & Lb & Vb).
        * rewrite <- Nat.add_assoc. exact Hex.
        * exact Fb.
        * intros l Hin. destruct (Hlater l Hin) as (q & Hq & Hge). exists q. split; [exact Hq|lia].
        * exact Labb.
        * lia.
        * exists (ca ++ cb). rewrite resolve_at_app, Ra, psize_flat, Rb. split; [reflexivity|]. split.
          -- rewrite app_length. lia.
          -- rewrite valid_from_app, Va, La, Vb. reflexivity.
  Qed.
End Placed.

Fixpoint hts (G : lmap) (t : ptree) (h : option nat) : list (option nat) :=
  match t with
  | TNil | TL _ => []
  | TI _ | TJ _ | TJC _ _ => [h]
  | TChunk bc Hb =>
      match h with
      | Some k => map (option_map (fun x => x + k)) (firstn (length bc) Hb)
      | None => repeat None (length bc)
      end
  | TSeq a b => hts G a h ++ match tck G a h with Some h1 => hts G b h1 | None => repeat None (tsize b) end
  end.

Lemma hts_length wfn G : forall t h h', tck G t h = Some h' -> tnested wfn t -> length (hts G t h) = tsize t.
Proof.
  induction t as [|i|l|w l|l|bc Hb|a IHa b IHb]; intros h h' Hck Hn; cbn [hts tsize tck tnested] in *; try reflexivity.
  - destruct h as [k|]; [|discriminate]. rewrite map_length, firstn_length.
    destruct (validate_parts _ _ _ Hn) as (HlenH & _). lia.
  - destruct (tck G a h) as [h1|] eqn:A; [|discriminate]. destruct Hn as [Na Nb].
    rewrite app_length, (IHa h h1 A Na), (IHb h1 h' Hck Nb). reflexivity.
Qed.

Lemma tlabs_bound t : forall p l q, In (l, q) (tlabs t p) -> p <= q <= p + tsize t.
Proof.
  induction t as [|i|l0|w l0|l0|bc Hb|a IHa b IHb]; intros p l q Hin; cbn [tlabs tsize] in *; try contradiction.
  - destruct Hin as [E|[]]. injection E as _ <-. lia.
  - apply in_app_or in Hin. destruct Hin as [Hin|Hin]; [apply IHa in Hin|apply IHb in Hin]; lia.
Qed.

Lemma nth_error_firstn_lt {A} (l : list A) : forall n j, j < n -> nth_error (firstn n l) j = nth_error l j.
Proof.
  induction l as [|x l IH]; intros n j Hj; [destruct n, j; reflexivity|].
  destruct n; [lia|]. destruct j; [reflexivity|]. cbn. apply IH. lia.
Qed.

Section Build.
  Variable wfn : code -> bool.
  Variable G : lmap.

  Lemma entry_ok_mid pre h post : entry_ok (pre ++ [h] ++ post) (length pre) h.
  Proof. destruct h as [k|]; [|exact I]. apply height_is_spec, nth_error_mid. Qed.

  Lemma build_ok : forall t pre post h h',
    tck G t h = Some h' -> tnested wfn t ->
    let H := pre ++ hts G t h ++ post in
    let p := length pre in
    entry_ok H (p + tsize t) h' ->
    (forall l q k, In (l, q) (tlabs t p) -> G l = Some k -> height_is H q k = true) /\
    entry_ok H p h /\ hts_ok H G t p h.
  Proof.
    induction t as [|i|l|w l|l|bc Hb|a IHa b IHb]; intros pre post h h' Hck Hn H p Hex;
      cbn [tck tsize hts_ok tlabs tnested hts] in *.
    - injection Hck as <-. subst p. rewrite Nat.add_0_r in Hex. repeat split; [intros l q k []|exact Hex].
    - pose proof (entry_ok_mid pre h post) as E. repeat split; [intros l0 q k []|exact E|exact E].
    - pose proof (entry_ok_mid pre h post) as E. repeat split; [intros l0 q k []|exact E|exact E].
    - pose proof (entry_ok_mid pre h post) as E. repeat split; [intros l0 q k []|exact E|exact E].
    - rewrite Nat.add_0_r in Hex. destruct (G l) as [k0|] eqn:E; [|discriminate].
      assert (Hk0 : height_is H p k0 = true).
      { destruct h as [k|]; [destruct (Nat.eqb_spec k0 k); [|discriminate]; subst k0|]; injection Hck as <-; exact Hex. }
      repeat split.
      + intros l0 q k [Eq|[]] Hg. injection Eq as <- <-. rewrite E in Hg. injection Hg as <-. exact Hk0.
      + destruct h as [k|]; [|exact I]. destruct (Nat.eqb_spec k0 k); [|discriminate]. subst k0. exact Hk0.
    - destruct h as [k|]; [|discriminate]. injection Hck as <-.
      destruct (validate_parts _ _ _ Hn) as (HlenH & H0 & Hend & _).
      assert (Seg : forall j, j <= length bc ->
                nth_error H (p + j) = option_map (option_map (fun x => x + k)) (nth_error Hb j)).
      { intros j Hj. subst H p. rewrite nth_error_app2 by lia. replace (length pre + j - length pre) with j by lia.
        destruct (Nat.eq_dec j (length bc)) as [->|Hne].
        - rewrite nth_error_app2 by (rewrite map_length, firstn_length; lia).
          rewrite map_length, firstn_length. replace (length bc - Nat.min (length bc) (length Hb)) with 0 by lia.
          apply height_is_spec in Hend. rewrite Hend. cbn [option_map].
          cbn in Hex. apply height_is_spec in Hex. rewrite nth_error_app2 in Hex by lia.
          rewrite nth_error_app2 in Hex by (rewrite map_length, firstn_length; lia).
          rewrite map_length, firstn_length in Hex.
          replace (length pre + length bc - length pre - Nat.min (length bc) (length Hb)) with 0 in Hex by lia.
          rewrite Hex. reflexivity.
        - rewrite nth_error_app1 by (rewrite map_length, firstn_length; lia).
          rewrite nth_error_map. f_equal. apply nth_error_firstn_lt. lia. }
      repeat split; [intros l q k0 []| |exact Seg].
      cbn. apply height_is_spec. specialize (Seg 0 (Nat.le_0_l _)). rewrite Nat.add_0_r in Seg. rewrite Seg.
      apply height_is_spec in H0. rewrite H0. reflexivity.
    - destruct (tck G a h) as [h1|] eqn:A; [|discriminate]. destruct Hn as [Na Nb].
      pose proof (hts_length wfn G a h h1 A Na) as La.
      destruct (IHb (pre ++ hts G a h) post h1 h' Hck Nb) as (Lb & Eb & Ob).
      { rewrite app_length, La. subst H p. rewrite <- app_assoc. rewrite <- Nat.add_assoc. rewrite <- app_assoc in Hex. exact Hex. }
      rewrite app_length, La in Lb, Eb, Ob. rewrite <- !app_assoc in Lb, Eb, Ob.
      destruct (IHa pre (hts G b h1 ++ post) h h1 A Na) as (Lla & Ea & Oa).
      { exact Eb. }
      subst H p. rewrite <- !app_assoc.
      repeat split.
      + intros l q k Hin Hg. apply in_app_or in Hin. destruct Hin as [Hin|Hin]; [eapply Lla; eauto|eapply Lb; eauto].
      + exact Ea.
      + exact Oa.
      + exact Eb.
      + exact Ob.
  Qed.
End Build.

(** A tree that follows the height discipline, under some assignment [G] of heights to its labels, from
    an empty stack to exactly one value, whose labels are defined once and after their uses, and whose
    nested blocks are certified, resolves to code that passes the validator.  The certificate is [hts]:
    the entry height of every instruction, then the single value at the end. *)
Theorem resolve_valid_tck wfn T G :
  tck G T (Some 0) = Some (Some 1) ->
  tnested wfn T -> tfwd [] T -> NoDup (tdefs T) ->
  exists code H, resolve (flat T) = Some code /\ validate wfn code H = true.
Proof.
  intros Hck Hn Hf Hd.
  set (H := hts G T (Some 0) ++ [Some 1]).
  set (locs := rev (tlabs T 0)).
  pose proof (hts_length wfn G T _ _ Hck Hn) as HL.
  assert (Hend : height_is H (tsize T) 1 = true).
  { apply height_is_spec. unfold H. rewrite <- HL. apply (nth_error_mid _ _ []). }
  assert (Hlocs : label_locs (flat T) 0 [] = Some locs).
  { rewrite label_locs_spec; rewrite app_nil_r, plabs_flat; [reflexivity|exact Hd]. }
  assert (Hfind : forall l q, In (l, q) (tlabs T 0) -> find_label l locs = Some q).
  { intros l q Hin. apply find_label_in; unfold locs.
    - rewrite map_rev. apply NoDup_rev. exact Hd.
    - apply in_rev in Hin. exact Hin. }
  destruct (build_ok wfn G T [] [Some 1] (Some 0) (Some 1) Hck Hn Hend) as (Lh & E0 & Ok).
  cbn [app length] in Lh, E0, Ok. fold H in Lh, E0, Ok.
  assert (LP : forall l q, find_label l locs = Some q ->
                 q <= tsize T /\ (forall k, G l = Some k -> height_is H q k = true)).
  { intros l q Hq. apply find_label_some_in, in_rev in Hq. split.
    - apply tlabs_bound in Hq. lia.
    - intros k Hg. eapply Lh; eauto. }
  destruct (placed_valid wfn (tsize T) H G locs LP T 0 (Some 0) (Some 1) [] Hck Hn Ok E0 Hend Hf) as (code & Rc & Lc & Vc);
    [intros l []|exact Hfind|lia|].
  exists code, H. split.
  - unfold resolve. rewrite Hlocs. exact Rc.
  - unfold validate. rewrite Lc, Hend, Vc. cbn in E0. rewrite E0.
    unfold H. rewrite app_length, HL, Nat.add_1_r, Nat.eqb_refl. reflexivity.
Qed.

(** The same with the labels' heights inferred on the way. *)
Theorem resolve_valid wfn T G :
  tcheck T (Some 0) (fun _ => None) = Some (Some 1, G) ->
  tnested wfn T -> tfwd [] T -> NoDup (tdefs T) ->
  exists code H, resolve (flat T) = Some code /\ validate wfn code H = true.
Proof. intros Hc. apply (resolve_valid_tck wfn T G), (tcheck_tck T _ _ _ _ Hc G (extends_refl G)). Qed.
