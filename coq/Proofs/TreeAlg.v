(* Proofs/TreeAlg.v — C10: an algebra of height-disciplined trees (Proofs/Asm.v) for the shapes the
   compiler emits.  Two independent facts about a tree are composed: its stack effect ([eff]: under
   any assignment that gives the labels it mentions their heights, the checker [tck] takes the entry
   height to the exit height, whatever lies below on the stack), and the freshness of the labels it
   defines ([labels_in]).  A jump to a label and the label's later definition close into a tree that
   no longer mentions the label from outside.  Nothing about the labels has to be consistent until a
   tree is closed: then its own labels are distinct, and the assignment is read off them. *)
From Coq Require Import ZArith List Bool Lia Arith Permutation.
From Rscel Require Import Base.Prims Model.Value Model.Compile Spec.WfCode Proofs.Asm.
Import ListNotations.
Local Open Scope nat_scope.

Definition wf1 : code -> bool := fun _ => true.

Definition in_range (n n' l : nat) : Prop := n <= l < n'.
Definition lset := nat -> Prop.

Definition lunion (A B : lset) : lset := fun l => A l \/ B l.

(** heights relative to a base: [None] = no path reaches the point *)
Definition hs (k : nat) (a : option nat) : option nat := option_map (fun x => x + k) a.

Lemma hs_hs k m a : hs k (hs m a) = hs (m + k) a.
Proof. destruct a as [x|]; cbn; [f_equal; lia|reflexivity]. Qed.

Lemma NoDup_app_disjoint {A} (l1 l2 : list A) : NoDup l1 -> NoDup l2 -> (forall x, In x l1 -> In x l2 -> False) -> NoDup (l1 ++ l2).
Proof.
  induction l1 as [|a l1 IH]; intros H1 H2 Hd; [exact H2|]. cbn. inversion H1 as [|? ? Ha Hr]; subst. constructor.
  - intros Hin. apply in_app_or in Hin. destruct Hin as [Hin|Hin]; [auto|]. apply (Hd a); [left; reflexivity|exact Hin].
  - apply IH; auto. intros x Hx Hy. apply (Hd x); [right; exact Hx|exact Hy].
Qed.

Lemma tfwd_mono t : forall L L', incl L L' -> tfwd L t -> tfwd L' t.
Proof.
  induction t as [|i|l|w l|l|bc Hb|a IHa b IHb]; intros L L' Hi H; cbn [tfwd] in *; auto.
  destruct H as [Ha Hb']. split; [|eauto]. eapply IHa; [|exact Ha]. apply incl_app; [apply incl_appl, incl_refl|apply incl_appr; exact Hi].
Qed.

Fixpoint tuses (t : ptree) : list nat :=
  match t with
  | TJ l | TJC _ l => [l]
  | TSeq a b => tuses a ++ tuses b
  | _ => []
  end.

Lemma tfwd_uses t : forall L, tfwd L t -> forall l, In l (tuses t) -> In l (tdefs t) \/ In l L.
Proof.
  induction t as [|i|l0|w l0|l0|bc Hb|a IHa b IHb]; intros L H l Hin; cbn [tfwd tuses] in *; try contradiction.
  - destruct Hin as [<-|[]]. right. exact H.
  - destruct Hin as [<-|[]]. right. exact H.
  - destruct H as [Ha Hb']. rewrite tdefs_seq. apply in_app_or in Hin. destruct Hin as [Hin|Hin].
    + destruct (IHa _ Ha l Hin) as [D|D]; [left; apply in_or_app; left; exact D|].
      apply in_app_or in D. destruct D as [D|D]; [left; apply in_or_app; right; exact D|right; exact D].
    + destruct (IHb _ Hb' l Hin) as [D|D]; [left; apply in_or_app; right; exact D|right; exact D].
Qed.

Definition agrees (G : lmap) (k : nat) (ls : list (nat * nat)) : Prop :=
  forall l o, In (l, o) ls -> G l = Some (o + k).

Lemma agrees_incl G k ls ls' : agrees G k ls' -> incl ls ls' -> agrees G k ls.
Proof. intros A Hi l o Hin. apply A, Hi, Hin. Qed.

Definition shift (m : nat) (ls : list (nat * nat)) : list (nat * nat) := map (fun lo => (fst lo, snd lo + m)) ls.

(** a tree taking relative height [a] to [b], possibly jumping to the external labels [ext], each
    expected at its relative height; [own] lists the heights of the labels the tree defines *)
Record eff (ext : list (nat * nat)) (t : ptree) (a b : option nat) : Prop := mkEff {
  e_nest : tnested wf1 t;
  e_fwd : tfwd (map fst ext) t;
  e_check : exists own, map fst own = tdefs t /\
      forall k G, agrees G k (ext ++ own) -> tck G t (hs k a) = Some (hs k b)
}.

Lemma eff_leaf ext t a b : tdefs t = [] -> tnested wf1 t -> tfwd (map fst ext) t ->
  (forall k G, agrees G k ext -> tck G t (hs k a) = Some (hs k b)) -> eff ext t a b.
Proof.
  intros D N F C. split; [exact N|exact F|]. exists []. split; [symmetry; exact D|].
  intros k G A. rewrite app_nil_r in A. exact (C k G A).
Qed.

Lemma eff_instr ext i j : is_jump i = false -> eff ext (TI i) (Some (pops i + j)) (Some (pushes i + j)).
Proof.
  intros Hj. apply eff_leaf; [reflexivity| |exact I|].
  - split; [exact Hj|]. destruct i; try exact I. destruct v; try exact I. reflexivity.
  - intros k G _. cbn [tck hs option_map].
    replace (Nat.leb (pops i) (pops i + j + k)) with true by (symmetry; apply Nat.leb_le; lia).
    do 2 f_equal. lia.
Qed.

Lemma eff_nil ext a : eff ext TNil a a.
Proof. apply eff_leaf; [reflexivity|exact I|exact I|reflexivity]. Qed.

Lemma eff_chunk ext bc Hb j : validate wf1 bc Hb = true -> eff ext (TChunk bc Hb) (Some j) (Some (S j)).
Proof. intros Hv. apply eff_leaf; [reflexivity|exact Hv|exact I|reflexivity]. Qed.

Lemma eff_j ext L o : In (L, o) ext -> eff ext (TJ L) (Some o) None.
Proof.
  intros Hin. apply eff_leaf; [reflexivity|exact I|exact (in_map fst _ _ Hin)|].
  intros k G A. cbn [tck hs option_map]. rewrite (A L o Hin), Nat.eqb_refl. reflexivity.
Qed.

Lemma eff_jc ext w L o : In (L, o) ext -> eff ext (TJC w L) (Some (S o)) (Some o).
Proof.
  intros Hin. apply eff_leaf; [reflexivity|exact I|exact (in_map fst _ _ Hin)|].
  intros k G A. cbn [tck hs option_map Nat.add]. rewrite (A L o Hin), Nat.eqb_refl. reflexivity.
Qed.

Lemma eff_ext ext ext' t a b : incl ext ext' -> eff ext t a b -> eff ext' t a b.
Proof.
  intros Hi [N F (own & D & C)]. split; [exact N| |].
  - eapply tfwd_mono; [apply incl_map; exact Hi|exact F].
  - exists own. split; [exact D|]. intros k G A. apply C, (agrees_incl _ _ _ _ A), incl_app_app; [exact Hi|apply incl_refl].
Qed.

Lemma eff_lift ext t a b m : eff ext t a b -> eff (shift m ext) t (hs m a) (hs m b).
Proof.
  intros [N F (own & D & C)]. split; [exact N| |].
  - unfold shift. rewrite map_map. exact F.
  - exists (shift m own). split; [unfold shift; rewrite map_map; exact D|].
    intros k G A. rewrite !hs_hs. apply C. intros l o Hin.
    unfold shift in A. rewrite <- map_app in A.
    rewrite (A l (o + m) (in_map (fun lo => (fst lo, snd lo + m)) _ _ Hin)). f_equal. lia.
Qed.

Lemma eff_seq ext t1 t2 a b c : eff ext t1 a b -> eff ext t2 b c -> eff ext (TSeq t1 t2) a c.
Proof.
  intros [N1 F1 (o1 & D1 & C1)] [N2 F2 (o2 & D2 & C2)]. split.
  - split; assumption.
  - split; [|exact F2]. eapply tfwd_mono; [apply incl_appr, incl_refl|exact F1].
  - exists (o1 ++ o2). split; [rewrite map_app, tdefs_seq, D1, D2; reflexivity|].
    intros k G A. cbn [tck]. rewrite (C1 k G), (C2 k G); [reflexivity| |];
      apply (agrees_incl _ _ _ _ A); intros x; rewrite !in_app_iff; tauto.
Qed.

(** a label is defined after the part that jumps to it, and stops being external; the part before it
    ends at the label's height, or in a jump *)
Lemma eff_define ext pre post L o a b c :
  eff ((L, o) :: ext) pre a b -> b = Some o \/ b = None -> eff ext post (Some o) c ->
  eff ext (TSeq pre (TSeq (TL L) post)) a c.
Proof.
  intros [N1 F1 (o1 & D1 & C1)] Hb [N2 F2 (o2 & D2 & C2)]. split.
  - cbn [tnested]. auto.
  - cbn [tfwd]. split; [|split; [exact I|exact F2]].
    eapply tfwd_mono; [|exact F1]. rewrite tdefs_seq. intros l [<-|Hl]; [left; reflexivity|apply in_or_app; right; exact Hl].
  - exists (o1 ++ (L, o) :: o2). split.
    + rewrite !tdefs_seq, map_app. cbn [map fst]. rewrite D1, D2. reflexivity.
    + intros k G A. cbn [tck].
      rewrite (C1 k G), (A L o); [|rewrite !in_app_iff; cbn [In]; tauto|apply (agrees_incl _ _ _ _ A); intros x; rewrite !in_app_iff; cbn [In]; tauto].
      destruct Hb as [-> | ->]; cbn [hs option_map]; rewrite ?Nat.eqb_refl;
        apply C2, (agrees_incl _ _ _ _ A); intros x; rewrite !in_app_iff; cbn [In]; tauto.
Qed.

Definition labels_in (R : lset) (t : ptree) : Prop := NoDup (tdefs t) /\ forall l, In l (tdefs t) -> R l.

Lemma labels_none R t : tdefs t = [] -> labels_in R t.
Proof. intros E. unfold labels_in. rewrite E. split; [constructor|intros l []]. Qed.

Lemma labels_weaken (R R' : lset) t : labels_in R t -> (forall l, R l -> R' l) -> labels_in R' t.
Proof. intros [D Rg] Hs. split; auto. Qed.

Lemma labels_label L : labels_in (eq L) (TL L).
Proof. split; [repeat constructor; intros []|intros l [<-|[]]; reflexivity]. Qed.

Lemma labels_seq (R1 R2 : lset) t1 t2 : (forall l, R1 l -> R2 l -> False) ->
  labels_in R1 t1 -> labels_in R2 t2 -> labels_in (lunion R1 R2) (TSeq t1 t2).
Proof.
  intros Hd [D1 G1] [D2 G2]. unfold labels_in. rewrite tdefs_seq. split.
  - apply NoDup_app_disjoint; auto. intros l A B. exact (Hd l (G1 l A) (G2 l B)).
  - intros l Hl. apply in_app_or in Hl. destruct Hl; [left|right]; auto.
Qed.

Lemma labels_define (R1 R2 : lset) pre post L :
  (forall l, R1 l -> R2 l -> False) -> ~ R1 L -> ~ R2 L ->
  labels_in R1 pre -> labels_in R2 post ->
  labels_in (lunion R1 (lunion (eq L) R2)) (TSeq pre (TSeq (TL L) post)).
Proof.
  intros Hd H1 H2 Lb1 Lb2. apply labels_seq; [|exact Lb1|apply labels_seq; [|apply labels_label|exact Lb2]].
  - intros l A [<-|B]; [exact (H1 A)|exact (Hd l A B)].
  - intros l <-. exact H2.
Qed.

(** Labels come from a counter: the own labels of [t] were taken from [n, n').  Carrying [n <= n'] lets
    consecutive trees compose without side conditions. *)

Definition effI (ext : list (nat * nat)) (n n' : nat) (t : ptree) (a b : option nat) : Prop :=
  n <= n' /\ eff ext t a b /\ labels_in (in_range n n') t.

Lemma effI_leaf ext n t a b : tdefs t = [] -> eff ext t a b -> effI ext n n t a b.
Proof. intros D E. split; [lia|]. split; [exact E|apply labels_none, D]. Qed.

Lemma effI_weaken ext n n' t a b m m' : effI ext n n' t a b -> m <= n -> n' <= m' -> effI ext m m' t a b.
Proof.
  intros (L & E & Lb) H1 H2. split; [lia|]. split; [exact E|].
  apply (labels_weaken _ _ _ Lb). unfold in_range. lia.
Qed.

Lemma effI_sub n n' t a b : effI [] n n' t a b -> forall ext m, effI ext n n' t (hs m a) (hs m b).
Proof.
  intros (L & E & Lb) ext m. split; [exact L|]. split; [|exact Lb].
  apply (eff_ext (shift m [])); [intros x []|apply eff_lift, E].
Qed.

Lemma effI_instr ext n i j : is_jump i = false -> effI ext n n (TI i) (Some (pops i + j)) (Some (pushes i + j)).
Proof. intros Hj. apply effI_leaf; [reflexivity|apply eff_instr, Hj]. Qed.
Lemma effI_nil ext n a : effI ext n n TNil a a.
Proof. apply effI_leaf; [reflexivity|apply eff_nil]. Qed.
Lemma effI_chunk ext n bc Hb j : validate wf1 bc Hb = true -> effI ext n n (TChunk bc Hb) (Some j) (Some (S j)).
Proof. intros Hv. apply effI_leaf; [reflexivity|apply eff_chunk, Hv]. Qed.
Lemma effI_jc ext n w L o : In (L, o) ext -> effI ext n n (TJC w L) (Some (S o)) (Some o).
Proof. intros Hin. apply effI_leaf; [reflexivity|apply eff_jc, Hin]. Qed.
Lemma effI_j ext n L o : In (L, o) ext -> effI ext n n (TJ L) (Some o) None.
Proof. intros Hin. apply effI_leaf; [reflexivity|apply eff_j, Hin]. Qed.

(** either order: a map entry's key is compiled before its value and placed after it *)
Lemma effI_seq2 ext n n' p1 p2 q1 q2 t1 t2 a b c :
  n <= p1 -> p2 <= n' -> n <= q1 -> q2 <= n' -> (p2 <= q1 \/ q2 <= p1) ->
  effI ext p1 p2 t1 a b -> effI ext q1 q2 t2 b c -> effI ext n n' (TSeq t1 t2) a c.
Proof.
  intros Hp1 Hp2 Hq1 Hq2 Hdis (L1 & E1 & Lb1) (L2 & E2 & Lb2). split; [lia|]. split; [exact (eff_seq _ _ _ _ _ _ E1 E2)|].
  apply (labels_weaken (lunion (in_range p1 p2) (in_range q1 q2))).
  - apply labels_seq; [|exact Lb1|exact Lb2]. unfold in_range. lia.
  - unfold lunion, in_range. lia.
Qed.

Lemma effI_seq ext n n1 n2 t1 t2 a b c :
  effI ext n n1 t1 a b -> effI ext n1 n2 t2 b c -> effI ext n n2 (TSeq t1 t2) a c.
Proof.
  intros E1 E2. pose proof (proj1 E1). pose proof (proj1 E2).
  apply (effI_seq2 ext n n2 n n1 n1 n2 t1 t2 a b c); auto; lia.
Qed.

Lemma effI_define ext n n' p1 p2 q1 q2 pre post L o a b c :
  effI ((L, o) :: ext) p1 p2 pre a b -> b = Some o \/ b = None -> effI ext q1 q2 post (Some o) c ->
  n <= p1 -> p2 <= q1 -> q2 <= n' ->
  in_range n n' L -> ~ in_range p1 p2 L -> ~ in_range q1 q2 L ->
  effI ext n n' (TSeq pre (TSeq (TL L) post)) a c.
Proof.
  intros (L1 & E1 & Lb1) Hb (L2 & E2 & Lb2) H1 H2 H3 HL HLp HLq. split; [lia|]. split; [exact (eff_define _ _ _ _ _ _ _ _ E1 Hb E2)|].
  apply (labels_weaken (lunion (in_range p1 p2) (lunion (eq L) (in_range q1 q2)))).
  - apply labels_define; auto. unfold in_range. lia.
  - intros l [A|[<-|A]]; [|exact HL|]; unfold in_range in *; lia.
Qed.
