(* Proofs/Relevance.v — C17: evaluation reads only the identifiers the code can resolve.  Two bindings that
   agree on a set S of names give the same outcome (value, error, log) for every program whose
   resolvable identifiers lie in S.  An identifier pushed immediately before Access is a field name and one
   pushed immediately before Call is a callee: neither is ever resolved against the bindings, so they do
   not count.  The whole interpreter and every built-in function are covered; the sweep of the built-in
   table ([call_default_ok], [ctor_ok]) also excludes the panic outcome, which is what Proofs/Total.v takes from here. *)
From Coq Require Import ZArith List Permutation.
From Rscel Require Import Base.Prims Model.Time Model.Value Model.Ops Model.Dispatch Model.Funcs Model.Interp
     Spec.Arith Proofs.ValueInd Proofs.OpsArith Proofs.OpsColl Proofs.OpsOrder.
Import ListNotations.
Open Scope Z_scope.

(** An identifier pushed immediately before Access is a field name, one pushed immediately before Call a
    callee: the instruction takes it off the stack as it is. *)
Definition takes_name (c : code) : bool := match c with IAccess :: _ | ICall _ :: _ => true | _ => false end.
Definition name_push (v : value) (r : code) : bool := match v with VIdent _ => takes_name r | _ => false end.

(** the pushed values that can come to be resolved against the bindings *)
Fixpoint resolvable (c : code) : list value :=
  match c with
  | [] => []
  | IPush v :: r => if name_push v r then resolvable r else v :: resolvable r
  | _ :: r => resolvable r
  end.

Definition noresolve_at (c : code) (pc : nat) : Prop :=
  nth_error c pc = Some IAccess \/ exists k, nth_error c pc = Some (ICall k).
Definition field_push (c : code) (pc : nat) : Prop :=
  exists n, nth_error c pc = Some (IPush (VIdent n)) /\ noresolve_at c (Datatypes.S pc).

Lemma name_push_field v r : name_push v r = true -> field_push (IPush v :: r) 0.
Proof.
  destruct v; try discriminate. destruct r as [|[] r']; try discriminate; intros _; exists s; (split; [reflexivity|]).
  - left. reflexivity.
  - right. exists n. reflexivity.
Qed.

Lemma name_push_app v a b : name_push v a = true -> name_push v (a ++ b) = true.
Proof. destruct v; try discriminate. destruct a as [|[] a']; try discriminate; reflexivity. Qed.

Lemma resolvable_tail i r : incl (resolvable r) (resolvable (i :: r)).
Proof.
  destruct i; try apply incl_refl. cbn [resolvable]. destruct (name_push v r); [apply incl_refl|apply incl_tl, incl_refl].
Qed.

Lemma resolvable_pushed c w : In w (resolvable c) -> In (IPush w) c.
Proof.
  induction c as [|i r IH]; [intros []|]. intros H. destruct i; try (right; exact (IH H)).
  cbn [resolvable] in H. destruct (name_push v r); [right; exact (IH H)|].
  destruct H as [<-|H]; [left; reflexivity|right; exact (IH H)].
Qed.

(** at the seam a push that ended [a] may meet an Access that begins [b]: then it is no longer resolved *)
Lemma resolvable_app a b : incl (resolvable (a ++ b)) (resolvable a ++ resolvable b).
Proof.
  induction a as [|i a IH]; [apply incl_refl|]. cbn [app]. destruct i; try exact IH. cbn [resolvable].
  destruct (name_push v a) eqn:N; [rewrite (name_push_app v a b N); exact IH|].
  destruct (name_push v (a ++ b)); [apply incl_tl; exact IH|].
  intros x [<-|Hx]; [left; reflexivity|right; exact (IH x Hx)].
Qed.

Lemma resolvable_nth : forall c pc v, nth_error c pc = Some (IPush v) -> field_push c pc \/ In v (resolvable c).
Proof.
  induction c as [|i r IH]; intros [|pc] v H; try discriminate H.
  - injection H as ->. cbn [resolvable]. destruct (name_push v r) eqn:N; [left; exact (name_push_field v r N)|right; left; reflexivity].
  - destruct (IH pc v H) as [F|Hin]; [left; exact F|right; exact (resolvable_tail i r v Hin)].
Qed.

Section Rel.
  Variable S : bytes -> Prop.

  (** every identifier that can be resolved out of this value is in S *)
  Fixpoint okv (v : value) : Prop :=
    match v with
    | VIdent n => S n
    | VList l => (fix go (l : list value) : Prop := match l with [] => True | x :: r => okv x /\ go r end) l
    | VMap m => (fix go (m : list (bytes * value)) : Prop := match m with [] => True | (_, x) :: r => okv x /\ go r end) m
    | VCode c =>
        (fix goc (c : list instr) : Prop :=
           match c with
           | [] => True
           | IPush v :: r =>
               match v, r with
               | VIdent _, IAccess :: _ => goc r
               | VIdent _, ICall _ :: _ => goc r
               | _, _ => okv v /\ goc r
               end
           | _ :: r => goc r
           end) c
    | _ => True
    end.
  Definition okc (c : code) : Prop := okv (VCode c).

  Lemma okv_list l : okv (VList l) <-> Forall okv l.
  Proof. induction l as [|x r IH]; cbn; [split; auto|]. split; [intros [A B]; constructor; [exact A|apply IH; exact B]|].
    intros H. inversion H; subst. split; [assumption|apply IH; assumption]. Qed.
  Lemma okv_map m : okv (VMap m) <-> Forall (fun kv => okv (snd kv)) m.
  Proof. induction m as [|[k x] r IH]; cbn; [split; auto|]. split; [intros [A B]; constructor; [exact A|apply IH; exact B]|].
    intros H. inversion H; subst. split; [assumption|apply IH; assumption]. Qed.

  Lemma okc_push v r : okc (IPush v :: r) <-> if name_push v r then okc r else okv v /\ okc r.
  Proof.
    change (okc (IPush v :: r)) with (match v, r with VIdent _, IAccess :: _ | VIdent _, ICall _ :: _ => okc r | _, _ => okv v /\ okc r end).
    destruct v; try exact (iff_refl _). destruct r as [|[] r']; exact (iff_refl _).
  Qed.

  Lemma okc_resolvable c : okc c <-> Forall okv (resolvable c).
  Proof.
    induction c as [|i r IH]; [split; constructor|]. destruct i; try exact IH.
    rewrite okc_push. cbn [resolvable]. destruct (name_push v r); [exact IH|]. rewrite Forall_cons_iff, IH. reflexivity.
  Qed.

  Lemma okc_app a b : okc a -> okc b -> okc (a ++ b).
  Proof.
    rewrite !okc_resolvable. intros Ha Hb. apply (incl_Forall (resolvable_app a b)). apply Forall_app. split; assumption.
  Qed.

  Lemma okc_nth : forall c pc v, okc c -> nth_error c pc = Some (IPush v) -> field_push c pc \/ okv v.
  Proof.
    intros c pc v H Hn. destruct (resolvable_nth c pc v Hn) as [F|Hin]; [left; exact F|right].
    apply okc_resolvable in H. rewrite Forall_forall in H. exact (H v Hin).
  Qed.

  Definition oksv (x : sval) : Prop := match x with SVal v => okv v | SBound _ _ this => okv this end.
  Definition okst (st : stack) : Prop := Forall oksv st.

  Definition meq {A} (P : A -> Prop) (m m' : M A) : Prop :=
    forall lg, m lg = m' lg /\ (forall a lg', m lg = (ROk a, lg') -> P a).

  Lemma meq_lift {A} (P : A -> Prop) r : (forall a, r = ROk a -> P a) -> meq P (mlift r) (mlift r).
  Proof. intros H lg. split; [reflexivity|]. cbn. intros a0 lg' E. injection E as E _. auto. Qed.
  Lemma meq_ret {A} (P : A -> Prop) a : P a -> meq P (mret a) (mret a).
  Proof. intros H. apply (meq_lift P (ROk a)). intros a0 E. injection E as <-. exact H. Qed.
  Lemma meq_fail {A} (P : A -> Prop) e : meq P (mfail e) (mfail e).
  Proof. apply (meq_lift P (RErr e)). discriminate. Qed.
  Lemma meq_fail_runtime {A} (P : A -> Prop) e : meq P (mfail_runtime e) (mfail_runtime e).
  Proof. intros lg. split; [reflexivity|]. cbn. intros a0 lg' E. discriminate. Qed.
  Lemma meq_bind {A B} (P : A -> Prop) (Q : B -> Prop) m m' f f' :
    meq P m m' -> (forall a, P a -> meq Q (f a) (f' a)) -> meq Q (mbind m f) (mbind m' f').
  Proof.
    intros Hm Hf lg. unfold mbind. destruct (Hm lg) as [E Pa]. rewrite <- E.
    destruct (m lg) as [[a|e| | |] lg1]; try (split; [reflexivity|intros; discriminate]).
    apply Hf. eapply Pa. reflexivity.
  Qed.
  Lemma meq_weaken {A} (P Q : A -> Prop) m m' : meq P m m' -> (forall a, P a -> Q a) -> meq Q m m'.
  Proof. intros H HPQ lg. destruct (H lg) as [E Pa]. split; [exact E|]. intros a lg' Ea. apply HPQ. eauto. Qed.

  Lemma meq_bind_ret {A B} (Q : B -> Prop) (a : A) (f f' : A -> M B) : meq Q (f a) (f' a) -> meq Q (mbind (mret a) f) (mbind (mret a) f').
  Proof. intros H lg. exact (H lg). Qed.

  Definition ok1 (f : value -> value) : Prop := forall a, okv a -> okv (f a).
  Definition ok2 (f : value -> value -> value) : Prop := forall a b, okv a -> okv b -> okv (f a b).

  Lemma map_get_ok m k v : okv (VMap m) -> map_get m k = Some v -> okv v.
  Proof.
    rewrite okv_map. induction m as [|[k' x] r IH]; cbn [map_get]; [discriminate|]. intros H. inversion H; subst.
    destruct (bytes_eqb k k'); [intros E0; injection E0 as <-; assumption|apply IH; assumption].
  Qed.

  (** environments that differ only outside S *)
  Record agree (E E' : env) : Prop := mkAgree {
    ag_bound : e_bound E = e_bound E';
    ag_progs : e_progs E = e_progs E';
    ag_ufuncs : e_ufuncs E = e_ufuncs E';
    ag_runtime : e_runtime E = e_runtime E';
    ag_now : e_now E = e_now E';
    ag_sorted : smap (e_params E) /\ smap (e_params E');
    ag_params : forall n, S n -> map_get (e_params E) n = map_get (e_params E') n;
    ag_okparams : forall n v, S n -> map_get (e_params E) n = Some v -> okv v;
    ag_okprogs : forall n c, S n -> assoc n (e_progs E) = Some c -> okc c;
    ag_okufuncs : forall n v, assoc n (e_ufuncs E) = Some (UFConst v) -> okv v
  }.

  Lemma agree_type E E' n : agree E E' -> env_type E n = env_type E' n.
  Proof. intros A. unfold env_type. rewrite (ag_bound _ _ A). reflexivity. Qed.
  Lemma agree_param E E' n : agree E E' -> S n -> env_param E n = env_param E' n.
  Proof. intros A Hn. unfold env_param. rewrite (ag_bound _ _ A), (ag_params _ _ A n Hn). reflexivity. Qed.
  Lemma agree_has_func E E' n : agree E E' -> has_func E n = has_func E' n.
  Proof. intros A. unfold has_func. rewrite (ag_bound _ _ A), (ag_ufuncs _ _ A). reflexivity. Qed.
  Lemma agree_has_macro E E' n : agree E E' -> has_macro E n = has_macro E' n.
  Proof. intros A. unfold has_macro. rewrite (ag_bound _ _ A), (ag_runtime _ _ A). reflexivity. Qed.
  Lemma agree_folding E E' : agree E E' -> folding E = folding E'.
  Proof. intros A. unfold folding. rewrite (ag_now _ _ A). reflexivity. Qed.

  Lemma agree_bind E E' k v : agree E E' -> okv v -> agree (bind_param E k v) (bind_param E' k v).
  Proof.
    intros A Hv. destruct A as [A1 A2 A3 A4 A5 [A6 A6'] A7 A8 A9 A10].
    constructor; cbn [bind_param e_bound e_params e_progs e_ufuncs e_runtime e_now]; auto.
    - split; apply map_insert_sorted; assumption.
    - intros n Hn. rewrite !map_get_insert by assumption. destruct (bytes_eqb n k); auto.
    - intros n v0 Hn. rewrite map_get_insert by assumption. destruct (bytes_eqb n k); [intros E0; injection E0 as <-; exact Hv|apply A8; exact Hn].
  Qed.

  Lemma agree_empty : agree empty_env empty_env.
  Proof. constructor; cbn; auto; try discriminate. Qed.
End Rel.

Arguments okv S v : simpl never.

Lemma okv_all (S : bytes -> Prop) : (forall n, S n) -> forall v, okv S v.
Proof.
  intros HS. apply (value_instr_ind (okv S) (fun i => match i with IPush v => okv S v | _ => True end)).
  - intros l H. apply okv_list. exact H.
  - intros m H. apply okv_map. exact H.
  - intros c H. change (okc S c). apply okc_resolvable, Forall_forall. intros v Hv.
    rewrite Forall_forall in H. exact (H (IPush v) (resolvable_pushed c v Hv)).
  - intros v Hv. destruct v; try contradiction; try exact I. apply HS.
  - intros v H. exact H.
  - intros i Hi. destruct i; try exact I. contradiction.
Qed.

Definition flatv (v : value) : Prop := match v with VBool _ | VErr _ => True | _ => False end.

Lemma eq_flat a b : flatv (eq_ a b).
Proof.
  (* an error on either side is the answer; a scalar on the left is compared through [eq_types], which answers
     with a bool; of the rest only list against list and map against map do not compute (and [exact I] is slow
     to fail on those two) *)
  destruct (is_err b) eqn:Eb; [destruct b; try discriminate Eb; destruct a; exact I|].
  destruct (scalar a) eqn:Sa.
  { rewrite (eq_scalar a b Sa Eb). destruct (type_prop a b) as [x y]. destruct x; try exact I; destruct y; exact I. }
  destruct a; try discriminate Sa; [ | | | |exact I]; destruct b; try discriminate Eb;
    lazymatch goal with
    | |- flatv (eq_ (VList _) (VList _)) => idtac
    | |- flatv (eq_ (VMap _) (VMap _)) => idtac
    | |- _ => exact I
    end; clear Eb Sa; simpl.
  - destruct (negb (zlen l =? zlen l0)); [exact I|].
    revert l0. induction l as [|x l IH]; intros [|y r]; try exact I.
    destruct (eq_ x y); try exact I. destruct b; [apply IH|exact I].
  - match goal with |- flatv (if ?c then _ else _) => destruct c end; exact I.
Qed.

Section Ops.
  Variable S : bytes -> Prop.
  Notation okv := (okv S).

  Lemma flat_ok v : flatv v -> okv v.
  Proof. destruct v; intros H; try contradiction; exact I. Qed.

  Ltac ok_cases :=
    repeat match goal with |- context [let (_, _) := (if ?c then _ else _) in _] => destruct c end;
    repeat match goal with
           | H : okv ?v |- okv ?v => exact H
           | |- okv (if ?c then _ else _) => destruct c
           | |- okv (match ?x with _ => _ end) => destruct x
           | |- okv _ => exact I
           end.

  Lemma ok_error_prop f a b : ok2 S f -> okv a -> okv b -> okv (error_prop_or a b f).
  Proof. intros Hf Ha Hb. unfold error_prop_or. destruct (is_err a); [exact Ha|]. destruct (is_err b); [exact Hb|]. apply Hf; assumption. Qed.

  Lemma ok_or : ok2 S or_.
  Proof. intros a b Ha Hb. unfold or_. ok_cases. Qed.
  Lemma ok_and : ok2 S and_.
  Proof. intros a b. apply ok_error_prop. intros x y _ _. exact I. Qed.
  Lemma ok_not : ok1 S not_.
  Proof. intros a Ha. unfold not_. ok_cases. Qed.
  Lemma ok_neg : ok1 S neg.
  Proof. intros a Ha. unfold neg, ck_int. ok_cases. Qed.

  Lemma ok_app x y : okv (VList x) -> okv (VList y) -> okv (VList (x ++ y)).
  Proof. rewrite !okv_list. intros. apply Forall_app. split; assumption. Qed.

  (** every arithmetic operator returns an argument (an error), a fresh scalar or error, or, for [add], the
      concatenation of two lists *)
  Lemma ok_arith o : ok2 S (model_op o).
  Proof.
    intros a b. destruct o; cbn [model_op]; apply ok_error_prop; clear a b; intros a b Ha Hb.
    all: destruct a, b; try exact I; cbn [type_prop]; unfold ck_int, ck_uint, checked_time, checked_dur; ok_cases.
    apply ok_app; assumption.
  Qed.
  Lemma ok_add : ok2 S add. Proof. exact (ok_arith AAdd). Qed.
  Lemma ok_sub : ok2 S sub. Proof. exact (ok_arith ASub). Qed.
  Lemma ok_mul : ok2 S mul. Proof. exact (ok_arith AMul). Qed.
  Lemma ok_div : ok2 S div. Proof. exact (ok_arith ADiv). Qed.
  Lemma ok_rem : ok2 S rem. Proof. exact (ok_arith ARem). Qed.
  Lemma ok_cmp p : ok2 S (cmp_with p).
  Proof. intros a b. apply ok_error_prop. intros x y _ _. destruct (ord x y); exact I. Qed.
  Lemma ok_eq : ok2 S eq_.
  Proof. intros a b _ _. apply flat_ok. apply eq_flat. Qed.
  Lemma ok_neq : ok2 S neq.
  Proof.
    intros a b. apply ok_error_prop. intros x y _ _.
    pose proof (eq_flat x y) as F. destruct (eq_ x y); try contradiction; exact I.
  Qed.
  Lemma ok_in : ok2 S in_.
  Proof. intros a b. apply ok_error_prop. intros x y Hx Hy. ok_cases. Qed.

  Lemma znth_ok l : forall i v, okv (VList l) -> znth l i = Some v -> okv v.
  Proof.
    induction l as [|x l IH]; intros i v H; cbn [znth]; [discriminate|]. apply okv_list in H. inversion H; subst.
    destruct (i =? 0); [intros E; injection E as <-; assumption|]. destruct (i <? 0); [discriminate|].
    apply IH. apply okv_list. assumption.
  Qed.

  Lemma ok_index : ok2 S index.
  Proof.
    intros a b. apply ok_error_prop. clear a b. intros a b Ha Hb. cbv zeta.
    destruct a; try exact I.
    - destruct b; try exact I.
      + destruct (_ <? 0); [exact I|]. destruct (znth l _) eqn:Z; [eapply znth_ok; eauto|exact I].
      + destruct (znth l z) eqn:Z; [eapply znth_ok; eauto|exact I].
    - destruct b; try exact I. destruct (map_get m s) eqn:G; [eapply map_get_ok; eauto|exact I].
  Qed.
End Ops.

Section Funcs.
  Variable S : bytes -> Prop.
  Notation okv := (okv S).

  (** what a built-in may answer: no panic, and in a value only what its arguments held *)
  Definition okr (r : res value) : Prop := match r with ROk v => okv v | RPanic => False | _ => True end.
  Lemma okr_np r : okr r -> r <> RPanic.
  Proof. intros H ->. exact H. Qed.
  Definition oka (l : list value) : Prop := forall x, In x l -> okv x.

  Lemma oka_forall l : Forall okv l -> oka l.
  Proof. intros H x Hx. rewrite Forall_forall in H. auto. Qed.

  Lemma ok_strs l : okv (VList (map VString l)).
  Proof. apply okv_list. induction l; cbn; constructor; auto. exact I. Qed.

  Lemma dispatch_ok arms this args :
    (forall a t l, In a arms -> okv t -> oka l -> okr (a_impl a t l)) ->
    okv this -> oka args -> okr (dispatch arms this args).
  Proof.
    intros H Ht Ha. unfold dispatch. destruct (Nat.ltb _ _); [exact I|].
    destruct (find _ arms) as [a|] eqn:F; [|exact I]. apply find_some in F. apply H; [tauto|exact Ht|].
    intros x Hx. apply in_app_or in Hx. destruct Hx as [Hx|Hx]; [auto|]. apply repeat_spec in Hx. subst. exact I.
  Qed.

  Lemma ok_sort l : oka l -> okr (sort_impl l).
  Proof.
    intros H. unfold sort_impl. destruct l as [|first l0]; [exact I|]. destruct (forallb _ _); [|exact I].
    apply okv_list, Forall_forall. intros x Hx. apply H.
    exact (Permutation_in x (Permutation_sym (sort_stable_perm_acc (first :: l0) [])) Hx).
  Qed.

  Ltac ok_arg := match goal with H : oka _ |- okv ?v => apply H; cbn [In]; tauto end.

  (* one arm of a built-in's table: follow its case analysis down to the answers; each is an error, "not
     modelled", a value built from fresh scalars, an argument, or the sorted list of the arguments *)
  Ltac body_ok :=
    cbn [a_impl arm1 arm2 arm3 arm_this arm_this1 arm_this2];
    repeat match goal with
           | |- okr ?r =>
               match r with
               | ROk _ => cbn [okr]
               | RUnmod => exact I
               | RErr _ => exact I
               | sort_impl _ => apply ok_sort; apply oka_forall; apply okv_list; assumption
               | match ?x with _ => _ end => destruct x
               | if ?c then _ else _ => destruct c
               | let '(_, _) := ?p in _ => destruct p
               | _ => progress unfold ok, verr, unmod, bad, pow_int_res, string_func, str2, ci, duration_new, read_clock, checked_time, checked_dur
               | _ => progress cbn [okr]
               end
           | |- okv (VList (map VString _)) => apply ok_strs
           | |- okv (if ?c then _ else _) => destruct c
           | |- okv (match ?x with _ => _ end) => destruct x
           | |- okv _ => first [exact I | assumption | ok_arg | exact (conj I (conj I I))]
           end.

  Ltac each_arm Hin := cbn [In] in Hin; repeat (destruct Hin as [<-|Hin]; [body_ok|]); try (destruct Hin).
  Ltac arms_ok := intros a t l Hin Ht Hl; each_arm Hin.

  Lemma ctor_ok now tname args : oka args -> okr (construct_type now tname args).
  Proof.
    intros Ha. unfold construct_type.
    repeat match goal with |- okr (if ?c then _ else _) => destruct c end; try exact I;
      (apply dispatch_ok; [|exact I|exact Ha]).
    all: unfold bool_arms, int_arms, uint_arms, double_arms, bytes_arms, string_arms, type_arms, timestamp_arms, duration_arms, dyn_arms; arms_ok.
  Qed.

  Lemma default_arms_ok now name arms : default_arms now name = Some arms ->
    forall a t l, In a arms -> okv t -> oka l -> okr (a_impl a t l).
  Proof.
    unfold default_arms.
    repeat (destruct (bytes_eqb name _); [intros H; injection H as <-; arms_ok|]).
    all: try (intros H; discriminate H).
  Qed.

  Lemma time_arms_ok name : forall a t l, In a (time_arms name) -> okv t -> oka l -> okr (a_impl a t l).
  Proof.
    unfold time_arms. destruct (taccess_of name) as [acc|]; [|intros a t l []].
    intros a t l Hin Ht Hl. apply in_app_or in Hin. destruct Hin as [Hin|Hin].
    - each_arm Hin.
    - destruct (dur_field acc 0); [|destruct Hin]. each_arm Hin.
  Qed.

  Lemma ok_pick better args : oka args -> okr (match args with [] => verr EArgument | v :: r => ok (pick better v r) end).
  Proof. intros Ha. destruct args as [|v r]; [exact I|]. apply Ha, pick_in. Qed.

  Lemma all_lists_ok : forall args ls, oka args -> all_lists args = Some ls -> forall l x, In l ls -> In x l -> okv x.
  Proof.
    induction args as [|a r IH]; intros ls Ha; cbn [all_lists fold_right]; [intros E; injection E as <-; intros l x []|].
    fold (all_lists r). destruct a; try discriminate. destruct (all_lists r) as [ls'|]; [|discriminate].
    intros E. injection E as <-. intros l1 x [<-|Hin] Hx.
    - assert (H : okv (VList l)) by (apply Ha; left; reflexivity). rewrite okv_list, Forall_forall in H. auto.
    - eapply IH; eauto. intros y Hy. apply Ha. right. exact Hy.
  Qed.

  Lemma zip_rows_ok : forall fuel ls, (forall l x, In l ls -> In x l -> okv x) -> Forall okv (zip_rows fuel ls).
  Proof.
    induction fuel as [|f IH]; intros ls H; cbn [zip_rows]; [constructor|].
    destruct (forallb _ ls); [|constructor]. constructor.
    - apply okv_list. apply Forall_forall. intros x Hx. apply in_map_iff in Hx. destruct Hx as (l & <- & Hl).
      destruct l as [|y l']; [exact I|]. apply (H (y :: l') y Hl). left. reflexivity.
    - apply IH. intros l x Hl Hx. apply in_map_iff in Hl. destruct Hl as (l0 & <- & Hl0).
      destruct l0 as [|y l']; [destruct Hx|]. apply (H (y :: l') x Hl0). right. exact Hx.
  Qed.

  Theorem call_default_ok now name this args r : okv this -> oka args -> call_default now name this args = Some r -> okr r.
  Proof.
    intros Ht Ha. unfold call_default. destruct (negb (is_default_func name)); [discriminate|].
    destruct (default_arms now name) as [arms|] eqn:D.
    - intros H. injection H as <-. apply dispatch_ok; [apply (default_arms_ok now name arms D)|exact Ht|exact Ha].
    - repeat match goal with |- (if ?c then _ else _) = _ -> _ => destruct c end; intros H; injection H as <-;
        try (apply dispatch_ok; [apply time_arms_ok|exact Ht|exact Ha]);
        try (unfold string_func; body_ok).
      + apply ok_pick. exact Ha.
      + apply ok_pick. exact Ha.
      + unfold zip_impl. destruct args as [|a0 rest]; [exact I|]. destruct (all_lists (a0 :: rest)) as [ls|] eqn:AL; [|exact I].
        cbn [okr ok]. apply okv_list. apply zip_rows_ok. eapply all_lists_ok; eauto.
  Qed.
End Funcs.

Section Traversal.
  Variable S : bytes -> Prop.
  Notation okv := (okv S).
  Notation okc := (okc S).
  Notation okst := (okst S).
  Notation oksv := (oksv S).
  Notation agree := (agree S).
  Notation ok1 := (ok1 S).
  Notation ok2 := (ok2 S).

  Variable rs : runner.
  Hypothesis Hrs : forall E E' c r d, agree E E' -> okc c -> meq okv (rs E c r d) (rs E' c r d).

  Variables E E' : env.
  Hypothesis HA : agree E E'.
  Variable d : nat.

  Lemma okv_err e : okv (VErr e). Proof. exact I. Qed.
  Lemma okv_bool b : okv (VBool b). Proof. exact I. Qed.
  Lemma okv_null : okv VNull. Proof. exact I. Qed.

  Lemma rel_resolve_ident n : S n -> meq okv (resolve_ident rs E d n) (resolve_ident rs E' d n).
  Proof.
    intros Hn. unfold resolve_ident. rewrite <- (agree_type S E E' n HA).
    destruct (env_type E n) as [t|] eqn:T.
    { apply meq_ret. unfold env_type, get_type in T. destruct (e_bound E); [|discriminate].
      destruct (assoc n type_table); [|discriminate]. injection T as <-. exact I. }
    rewrite <- (agree_param S E E' n HA Hn). destruct (env_param E n) as [v|] eqn:P.
    { apply meq_ret. unfold env_param in P. destruct (e_bound E); [|discriminate]. eapply ag_okparams; eauto. }
    rewrite <- (ag_progs S _ _ HA). destruct (assoc n (e_progs E)) as [c|] eqn:Pg.
    { apply Hrs; [exact HA|]. eapply ag_okprogs; eauto. }
    rewrite <- (ag_now S _ _ HA). destruct (e_now E); [apply meq_ret; exact I|apply meq_fail_runtime].
  Qed.

  Definition okp {A} (P : A -> Prop) (p : A * stack) : Prop := P (fst p) /\ okst (snd p).

  Lemma rel_pop st : okst st -> meq (okp oksv) (pop rs E d st) (pop rs E' d st).
  Proof.
    intros H. unfold pop. destruct st as [|x st']; [apply meq_fail|]. inversion H as [|? ? Hx Hst]; subst.
    destruct x as [v|b n o]; [|apply meq_ret; split; assumption].
    destruct v; try (apply meq_ret; split; assumption).
    eapply meq_bind; [apply rel_resolve_ident; exact Hx|]. intros v Hv. apply meq_ret. split; assumption.
  Qed.

  Lemma rel_into_value x : oksv x -> meq okv (into_value x) (into_value x).
  Proof. intros H. destruct x; [apply meq_ret; exact H|apply meq_fail]. Qed.

  Lemma rel_pop_val st : okst st -> meq (okp okv) (pop_val rs E d st) (pop_val rs E' d st).
  Proof.
    intros H. unfold pop_val. eapply meq_bind; [apply rel_pop; exact H|]. intros [x st'] [Hx Hst]. cbn [fst snd] in *.
    eapply meq_bind; [apply rel_into_value; exact Hx|]. intros v Hv. apply meq_ret. split; assumption.
  Qed.

  Lemma meq_bind_pop {A B} (P : A -> Prop) (Q : B -> Prop) m m' (k k' : A * stack -> M B) : meq (okp P) m m' ->
    (forall a st, P a -> okst st -> meq Q (k (a, st)) (k' (a, st))) -> meq Q (mbind m k) (mbind m' k').
  Proof. intros Hm Hk. eapply meq_bind; [exact Hm|]. intros [a st] [Ha Hs]. exact (Hk a st Ha Hs). Qed.

  Lemma rel_pop_n n : forall st, okst st -> meq (okp (Forall okv)) (pop_n rs E d n st) (pop_n rs E' d n st).
  Proof.
    induction n as [|n IH]; intros st H; cbn [pop_n]; [apply meq_ret; split; [constructor|exact H]|].
    eapply meq_bind_pop; [apply rel_pop_val; exact H|]. intros v st1 Hv H1.
    eapply meq_bind_pop; [apply IH; exact H1|]. intros vs st2 Hvs H2.
    apply meq_ret. split; [constructor; assumption|exact H2].
  Qed.

  Lemma rel_resolve_args args : Forall okv args -> meq (Forall okv) (resolve_args rs E d args) (resolve_args rs E' d args).
  Proof.
    induction 1 as [|a r Ha _ IH]; cbn [resolve_args]; [apply meq_ret; constructor|].
    destruct a; try (eapply meq_bind; [exact IH|]; intros vs Hvs; apply meq_ret; constructor; assumption).
    eapply meq_bind; [apply Hrs; [exact HA|exact Ha]|]. intros v Hv.
    eapply meq_bind; [exact IH|]. intros vs Hvs. apply meq_ret. constructor; assumption.
  Qed.

  Lemma rel_note_clock b : meq (fun _ => True) (note_clock E b) (note_clock E' b).
  Proof. unfold note_clock. rewrite <- (agree_folding S E E' HA). intros lg. split; [reflexivity|auto]. Qed.

  Lemma rel_call_func name this args : okv this -> Forall okv args ->
    meq okv (call_func E name this args) (call_func E' name this args).
  Proof.
    intros Ht Ha. unfold call_func. rewrite <- (ag_ufuncs S _ _ HA), <- (ag_now S _ _ HA).
    destruct (assoc name (e_ufuncs E)) as [u|] eqn:U.
    - intros lg. split; [reflexivity|]. intros v lg' Ev. injection Ev as <- _.
      destruct u; cbn [ufun_apply].
      + eapply ag_okufuncs; eauto.
      + destruct Ha; [exact I|assumption].
      + exact Ht.
      + apply okv_list. exact Ha.
    - eapply meq_bind; [apply rel_note_clock|]. intros _ _.
      destruct (call_default (e_now E) name this args) as [r|] eqn:C; [|apply meq_fail].
      apply meq_lift. intros v ->. exact (call_default_ok S _ _ _ _ (ROk v) Ht (oka_forall S _ Ha) C).
  Qed.

  Lemma rel_eval_ident c : meq (fun r => match r with inl v => okv v | inr _ => True end) (eval_ident rs E c) (eval_ident rs E' c).
  Proof.
    intros lg. unfold eval_ident, ident_env. rewrite <- (ag_now S _ _ HA). split; [reflexivity|]. intros a lg'.
    destruct (rs (mkEnv false [] [] [] false (e_now E)) c false O lg) as [[v|e| | |] lg1]; try discriminate.
    - destruct v; intros Ev; injection Ev as <- _; exact I.
    - intros Ev; injection Ev as <- _; exact I.
  Qed.

  Definition oksum (r : value + value) : Prop := match r with inl v => okv v | inr v => okv v end.

  Lemma rel_run_body E1 E1' c : agree E1 E1' -> okc c -> meq oksum (run_body rs d E1 c) (run_body rs d E1' c).
  Proof.
    intros A Hc lg. unfold run_body. destruct (Hrs E1 E1' c true d A Hc lg) as [Eq Pv]. rewrite <- Eq.
    split; [reflexivity|]. intros a lg'. destruct (rs E1 c true d lg) as [[v|e| | |] lg1]; try discriminate.
    - intros Ev. injection Ev as <- _. cbn. eapply Pv. reflexivity.
    - intros Ev. injection Ev as <- _. exact I.
  Qed.

  Lemma rel_with_ident c k k' : (forall x, meq okv (k x) (k' x)) -> meq okv (with_ident rs E c k) (with_ident rs E' c k').
  Proof.
    intros Hk. unfold with_ident. eapply meq_bind; [apply rel_eval_ident|]. intros [e|x] Hr; [apply meq_ret; exact Hr|apply Hk].
  Qed.

  Lemma meq_bind_body E1 E1' c (k k' : value -> M value) : agree E1 E1' -> okc c -> (forall b, okv b -> meq okv (k b) (k' b)) ->
    meq okv (do r <- run_body rs d E1 c; match r with inl e => mret e | inr b => k b end)
            (do r <- run_body rs d E1' c; match r with inl e => mret e | inr b => k' b end).
  Proof.
    intros A Hc Hk. eapply meq_bind; [apply rel_run_body; [exact A|exact Hc]|]. intros [e|b] Hr; [apply meq_ret; exact Hr|apply Hk; exact Hr].
  Qed.

  Lemma rel_all_loop x body l : okc body -> Forall okv l -> meq okv (all_loop rs E d x body l) (all_loop rs E' d x body l).
  Proof.
    intros Hb. induction 1 as [|v l Hv _ IH]; cbn [all_loop]; [apply meq_ret; exact I|].
    apply meq_bind_body; [exact (agree_bind S E E' x v HA Hv)|exact Hb|]. intros b _.
    destruct (is_truthy b); [exact IH|apply meq_ret; exact I].
  Qed.
  Lemma rel_exists_loop x body l : okc body -> Forall okv l -> meq okv (exists_loop rs E d x body l) (exists_loop rs E' d x body l).
  Proof.
    intros Hb. induction 1 as [|v l Hv _ IH]; cbn [exists_loop]; [apply meq_ret; exact I|].
    apply meq_bind_body; [exact (agree_bind S E E' x v HA Hv)|exact Hb|]. intros b _.
    destruct (is_truthy b); [apply meq_ret; exact I|exact IH].
  Qed.
  Lemma rel_exists_one_loop x body l : okc body -> Forall okv l -> forall count,
    meq okv (exists_one_loop rs E d x body l count) (exists_one_loop rs E' d x body l count).
  Proof.
    intros Hb. induction 1 as [|v l Hv _ IH]; intros count; cbn [exists_one_loop]; [apply meq_ret; exact I|].
    apply meq_bind_body; [exact (agree_bind S E E' x v HA Hv)|exact Hb|]. intros b _.
    destruct (is_truthy b); [destruct (1 <? count + 1); [apply meq_ret; exact I|apply IH]|apply IH].
  Qed.
  Lemma rel_filter_loop x body l : okc body -> Forall okv l -> forall acc, Forall okv acc ->
    meq okv (filter_loop rs E d x body l acc) (filter_loop rs E' d x body l acc).
  Proof.
    intros Hb. induction 1 as [|v l Hv _ IH]; intros acc Hacc; cbn [filter_loop].
    - apply meq_ret. apply okv_list. apply Forall_rev. exact Hacc.
    - apply meq_bind_body; [exact (agree_bind S E E' x v HA Hv)|exact Hb|]. intros b _.
      apply IH. destruct (is_truthy b); [constructor; assumption|exact Hacc].
  Qed.
  Lemma rel_map_loop x pred f l : match pred with Some p => okc p | None => True end -> okc f -> Forall okv l ->
    forall acc, Forall okv acc -> meq okv (map_loop rs E d x pred f l acc) (map_loop rs E' d x pred f l acc).
  Proof.
    intros Hp Hf. induction 1 as [|v l Hv _ IH]; intros acc Hacc; cbn [map_loop].
    - apply meq_ret. apply okv_list. apply Forall_rev. exact Hacc.
    - pose proof (agree_bind S E E' x v HA Hv) as A. destruct pred as [p|].
      + apply meq_bind_body; [exact A|exact Hp|]. intros b _. destruct (is_truthy b); [|apply IH; exact Hacc].
        apply meq_bind_body; [exact A|exact Hf|]. intros y Hy. apply IH. constructor; assumption.
      + apply meq_bind_body; [exact A|exact Hf|]. intros y Hy. apply IH. constructor; assumption.
  Qed.
  Lemma rel_reduce_loop cur next body l : okc body -> Forall okv l -> forall acc, okv acc ->
    meq okv (reduce_loop rs E d cur next body l acc) (reduce_loop rs E' d cur next body l acc).
  Proof.
    intros Hb. induction 1 as [|v l Hv _ IH]; intros acc Hacc; cbn [reduce_loop]; [apply meq_ret; exact Hacc|].
    apply meq_bind_body; [apply agree_bind; [apply agree_bind; [exact HA|exact Hv]|exact Hacc]|exact Hb|]. intros a Ha.
    destruct (nested_too_deep a); [apply meq_ret; exact I|apply IH; exact Ha].
  Qed.

  Lemma rel_coalesce_loop args : Forall okc args -> meq okv (coalesce_loop rs E d args) (coalesce_loop rs E' d args).
  Proof.
    induction 1 as [|c r Hc _ IH]; cbn [coalesce_loop]; [apply meq_ret; exact I|]. intros lg.
    destruct (Hrs E E' c true d HA Hc lg) as [Eq Pv]. rewrite <- Eq.
    destruct (rs E c true d lg) as [[v|e| | |] lg1]; try (split; [reflexivity|intros; discriminate]).
    - assert (Hv : okv v) by (eapply Pv; reflexivity).
      destruct v; try (split; [reflexivity|intros a lg' Ea; injection Ea as <- _; exact Hv]). apply IH.
    - destruct e; try (split; [reflexivity|intros a lg' Ea; injection Ea as <- _; exact I]); apply IH.
  Qed.

  Lemma elements_ok this : okv this ->
    match this with VList l => Forall okv l | VMap m => Forall okv (map_keys_as_values m) | _ => True end.
  Proof.
    intros H. destruct this; try exact I; [apply okv_list, H|]. clear H.
    unfold map_keys_as_values. induction m; cbn [map]; constructor; [exact I|assumption].
  Qed.

  Lemma rel_call_macro_impl name this args : okv this -> Forall okc args ->
    meq okv (call_macro_impl rs E d name this args) (call_macro_impl rs E' d name this args).
  Proof.
    intros Ht Ha. rewrite Forall_forall in Ha. pose proof (elements_ok this Ht) as Hl. unfold call_macro_impl.
    destruct (bytes_eqb name _).
    { destruct args as [|c [|c2 r]]; try (apply meq_ret; exact I). intros lg.
      destruct (Hrs E E' c true d HA (Ha c (or_introl eq_refl)) lg) as [Eq Pv]. rewrite <- Eq.
      destruct (rs E c true d lg) as [[v|e| | |] lg1]; try (split; [reflexivity|intros; discriminate]).
      - split; [reflexivity|intros a lg' Ea; injection Ea as <- _; exact I].
      - destruct e; (split; [reflexivity|intros a lg' Ea; injection Ea as <- _; exact I]). }
    destruct (bytes_eqb name _); [apply rel_coalesce_loop, Forall_forall, Ha|].
    destruct (bytes_eqb name _).
    { destruct args as [|a0 [|a1 [|a2 r]]]; try (apply meq_ret; exact I). apply rel_with_ident. intros x.
      destruct this; try (apply meq_ret; exact I). apply rel_all_loop; [apply Ha; cbn; tauto|exact Hl]. }
    destruct (bytes_eqb name _).
    { destruct args as [|a0 [|a1 [|a2 r]]]; try (apply meq_ret; exact I). apply rel_with_ident. intros x.
      destruct this; try (apply meq_ret; exact I). apply rel_exists_loop; [apply Ha; cbn; tauto|exact Hl]. }
    destruct (bytes_eqb name _).
    { destruct args as [|a0 [|a1 [|a2 r]]]; try (apply meq_ret; exact I). apply rel_with_ident. intros x.
      destruct this; try (apply meq_ret; exact I). apply rel_exists_one_loop; [apply Ha; cbn; tauto|exact Hl]. }
    destruct (bytes_eqb name _).
    { destruct args as [|a0 [|a1 [|a2 r]]]; try (apply meq_ret; exact I). apply rel_with_ident. intros x.
      destruct this; try (apply meq_ret; exact I); (apply rel_filter_loop; [apply Ha; cbn; tauto|exact Hl|constructor]). }
    destruct (bytes_eqb name _).
    { destruct args as [|a0 [|a1 [|a2 [|a3 r]]]]; try (apply meq_ret; exact I); apply rel_with_ident; intros x.
      - destruct this; try (apply meq_ret; exact I); (apply rel_map_loop; [exact I|apply Ha; cbn; tauto|exact Hl|constructor]).
      - destruct this; try (apply meq_ret; exact I); (apply rel_map_loop; [apply Ha; cbn; tauto|apply Ha; cbn; tauto|exact Hl|constructor]). }
    destruct (bytes_eqb name _); [|apply meq_fail].
    destruct args as [|a0 [|a1 [|a2 [|a3 [|a4 r]]]]]; try (apply meq_ret; exact I).
    apply rel_with_ident. intros cur. apply rel_with_ident. intros next.
    apply meq_bind_body; [exact HA|apply Ha; cbn; tauto|]. intros seed Hseed.
    destruct this; try (apply meq_ret; exact I). apply rel_reduce_loop; [apply Ha; cbn; tauto|exact Hl|exact Hseed].
  Qed.

  Lemma all_code_ok : forall args cs, Forall okv args -> all_code args = Some cs -> Forall okc cs.
  Proof.
    induction args as [|a r IH]; intros cs Ha; cbn [all_code fold_right]; [intros E0; injection E0 as <-; constructor|].
    inversion Ha as [|? ? H0 Hr]; subst. fold (all_code r). destruct a; try discriminate.
    destruct (all_code r) as [cs'|]; [|discriminate]. intros E0. injection E0 as <-. constructor; [exact H0|apply IH; auto].
  Qed.

  Lemma rel_call_macro name this args : okv this -> Forall okv args ->
    meq okv (call_macro rs E d name this args) (call_macro rs E' d name this args).
  Proof.
    intros Ht Ha. unfold call_macro. destruct (all_code args) as [cs|] eqn:C; [|apply meq_fail].
    apply rel_call_macro_impl; [exact Ht|eapply all_code_ok; eauto].
  Qed.

  Definition okj (r : option Z * stack) : Prop := okst (snd r).

  Lemma rel_bin f st : ok2 f -> okst st -> meq okj (bin rs E d f st) (bin rs E' d f st).
  Proof.
    intros Hf H. unfold bin. eapply meq_bind_pop; [apply rel_pop_val; exact H|]. intros v2 st1 H2 Hs1.
    eapply meq_bind_pop; [apply rel_pop_val; exact Hs1|]. intros v1 st2 H1 Hs2.
    apply meq_ret. unfold okj, push. cbn [snd]. constructor; [apply Hf; assumption|exact Hs2].
  Qed.
  Lemma rel_un f st : ok1 f -> okst st -> meq okj (un rs E d f st) (un rs E' d f st).
  Proof.
    intros Hf H. unfold un. eapply meq_bind_pop; [apply rel_pop_val; exact H|]. intros v1 st1 H1 Hs1.
    apply meq_ret. unfold okj, push. cbn [snd]. constructor; [apply Hf; assumption|exact Hs1].
  Qed.

  Lemma okst_push v st : okv v -> okst st -> okst (push v st).
  Proof. intros. constructor; assumption. Qed.

  Lemma rel_step_access st : match st with [] => True | _ :: st0 => okst st0 end ->
    meq okj (step rs E d IAccess st) (step rs E' d IAccess st).
  Proof.
    intros H. cbn [step]. unfold pop_noresolve. destruct st as [|idx st1]; [apply meq_fail|].
    apply meq_bind_ret.
    destruct idx as [v|b n o]; [|apply meq_fail].
    destruct v; try (eapply meq_bind_pop; [apply rel_pop_val; exact H|]; intros o st2 Ho Hs2;
                     apply meq_ret; apply okst_push; [exact I|exact Hs2]).
    eapply meq_bind_pop; [apply rel_pop_val; exact H|]. intros obj st2 Ho Hs2.
    rewrite <- (agree_has_func S E E' s HA), <- (agree_has_macro S E E' s HA), <- (agree_folding S E E' HA), <- (ag_bound S E E' HA).
    (* a name that is no field: a method, a macro, or an absent attribute; once both sides ask E it is one term *)
    set (ladder := if has_func E s then _ else _).
    assert (Ladder : meq okj ladder ladder).
    { unfold ladder. destruct (has_func E s); [apply meq_ret; constructor; assumption|].
      destruct (has_macro E s); [apply meq_ret; constructor; assumption|].
      destruct (folding E); [apply meq_fail_runtime|apply meq_ret; apply okst_push; [exact I|exact Hs2]]. }
    destruct obj; try (destruct (negb (e_bound E)); [apply meq_fail|exact Ladder]).
    - destruct (map_get m s) as [v|] eqn:G; [|exact Ladder].
      apply meq_ret. apply okst_push; [eapply map_get_ok; eauto|exact Hs2].
    - apply meq_ret. apply okst_push; [exact I|exact Hs2].
  Qed.

  Lemma rel_step_call n st :
    match st with [] => True | x :: st0 => okst st0 /\ match x with SVal (VIdent _) => True | _ => oksv x end end ->
    meq okj (step rs E d (ICall n) st) (step rs E' d (ICall n) st).
  Proof.
    intros H. cbn [step].
    unfold pop_noresolve. destruct st as [|callee st1]; [apply meq_fail|]. destruct H as [Hs1 Hc].
    apply meq_bind_ret.
    eapply meq_bind_pop; [apply rel_pop_n; exact Hs1|]. intros args st2 Ha Hs2.
    assert (Push : forall r, okv r -> meq okj (mret (None, push r st2)) (mret (None, push r st2))).
    { intros r Hr. apply meq_ret. apply okst_push; assumption. }
    assert (Ctor : forall tn, meq okj (do vals <- resolve_args rs E d args; do _ <- note_clock E (asks_clock_ty tn vals); do r <- mlift (construct_type (e_now E) tn vals); mret (None, push r st2))
                                   (do vals <- resolve_args rs E' d args; do _ <- note_clock E' (asks_clock_ty tn vals); do r <- mlift (construct_type (e_now E') tn vals); mret (None, push r st2))).
    { intros tn. rewrite <- (ag_now S E E' HA). eapply meq_bind; [apply rel_resolve_args; exact Ha|]. intros vals Hv.
      eapply meq_bind; [apply rel_note_clock|]. intros _ _.
      eapply meq_bind; [apply meq_lift; intros v Ev; pose proof (ctor_ok S (e_now E) tn vals (oka_forall S vals Hv)) as K; rewrite Ev in K; exact K|exact Push]. }
    destruct callee as [v|[|] name this].
    - destruct v; try (apply Push; exact I); try apply Ctor.
      rewrite <- (agree_has_func S E E' s HA), <- (agree_has_macro S E E' s HA), <- (agree_folding S E E' HA), <- (agree_type S E E' s HA).
      destruct (has_func E s).
      { eapply meq_bind; [apply rel_resolve_args; exact Ha|]. intros vals Hv.
        eapply meq_bind; [apply rel_call_func; [exact I|exact Hv]|exact Push]. }
      destruct (has_macro E s).
      { eapply meq_bind; [apply rel_call_macro; [exact I|exact Ha]|exact Push]. }
      destruct (env_type E s) as [t|]; [|destruct (folding E); [apply meq_fail_runtime|apply Push; exact I]].
      destruct t; try (destruct (folding E); [apply meq_fail_runtime|apply Push; exact I]). apply Ctor.
    - eapply meq_bind; [apply rel_call_macro; [exact Hc|exact Ha]|exact Push].
    - eapply meq_bind; [apply rel_resolve_args; exact Ha|]. intros vals Hv.
      eapply meq_bind; [apply rel_call_func; [exact Hc|exact Hv]|exact Push].
  Qed.

  Lemma rel_step i st : match i with IPush v => okv v | _ => True end -> okst st ->
    meq okj (step rs E d i st) (step rs E' d i st).
  Proof.
    intros Hi H.
    destruct i; cbn [step];
      try (apply rel_bin; [|exact H]; first [apply ok_or|apply ok_and|apply ok_add|apply ok_sub|apply ok_mul|apply ok_div|apply ok_rem
                                           |apply ok_cmp|apply ok_eq|apply ok_neq|apply ok_in|apply ok_index]);
      try (apply rel_un; [|exact H]; first [apply ok_not|apply ok_neg]).
    - apply meq_ret. apply okst_push; assumption.
    - eapply meq_bind_pop; [apply rel_pop_val; exact H|]. intros v st1 Hv Hs1. apply meq_ret. exact Hs1.
    - eapply meq_bind_pop; [apply rel_pop_val; exact H|]. intros v st1 Hv Hs1.
      destruct (is_err v); apply meq_ret; apply okst_push; auto; exact I.
    - eapply meq_bind_pop; [apply rel_pop_val; exact H|]. intros v st1 Hv Hs1.
      apply meq_ret. apply okst_push; [exact Hv|apply okst_push; assumption].
    - apply meq_ret. exact H.
    - eapply meq_bind_pop; [apply rel_pop_val; exact H|]. intros v st1 Hv Hs1.
      destruct v; try apply meq_fail; apply meq_ret; exact Hs1.
    - eapply meq_bind_pop; [apply rel_pop_n; exact H|]. intros vs st1 Hvs Hs1.
      apply meq_ret. apply okst_push; [apply okv_list; apply Forall_rev; exact Hvs|exact Hs1].
    - match goal with |- meq _ (?g (Z.to_nat n) st [] false) (?g' (Z.to_nat n) st [] false) =>
        assert (G : forall k st0 acc bad, okst st0 -> Forall (fun kv => okv (snd kv)) acc -> meq okj (g k st0 acc bad) (g' k st0 acc bad));
          [|apply G; [exact H|constructor]] end.
      induction k as [|k IH]; intros st0 acc bad Hs0 Hacc.
      + destruct bad; apply meq_ret; apply okst_push; try exact Hs0; [exact I|].
        apply okv_map. rewrite Forall_forall in Hacc.
        apply (fold_left_invariant _ (Forall (fun kv : bytes * value => okv (snd kv)))); [|constructor].
        intros m0 kv Hin Hm0. apply forall_insert; [exact Hm0|exact (Hacc kv Hin)].
      + eapply meq_bind_pop; [apply rel_pop_val; exact Hs0|]. intros key st1 Hk Hs1.
        eapply meq_bind_pop; [apply rel_pop_val; exact Hs1|]. intros v st2 Hv Hs2.
        destruct key; try (apply IH; assumption). apply IH; [exact Hs2|constructor; [exact Hv|exact Hacc]].
    - apply rel_step_access. destruct st; [exact I|]. inversion H; assumption.
    - apply rel_step_call. destruct st as [|x st0]; [exact I|]. inversion H as [|? ? Hx Hs0]; subst. split; [exact Hs0|]. destruct x as [v|]; [destruct v; try exact Hx; exact I|exact Hx].
    - eapply meq_bind_pop; [apply rel_pop_n; exact H|]. intros segs st1 Hsg Hs1.
      match goal with |- meq _ (?g (rev segs) []) _ => assert (G : forall l acc, meq okj (g l acc) (g l acc)); [|apply G] end.
      induction l as [|x l IH]; intros acc; [apply meq_ret; apply okst_push; [exact I|exact Hs1]|]. destruct x; try apply meq_fail. apply IH.
  Qed.

  (** the loop: the stack is fine, or we stand on an Access or a Call with the name it takes just pushed *)
  Definition okat (c : code) (pc : nat) (st : stack) : Prop :=
    okst st \/ (exists n st0, st = SVal (VIdent n) :: st0 /\ okst st0 /\ noresolve_at c pc).

  Theorem rel_loop c : okc c -> forall fuel pc st, okat c pc st ->
    meq okst (loop rs fuel E d c pc st) (loop rs fuel E' d c pc st).
  Proof.
    intros Hc. induction fuel as [|f IH]; intros pc st Hat; [intros lg; split; [reflexivity|intros; discriminate]|].
    cbn [loop].
    assert (Next : forall (r : option Z * stack), okj r ->
              meq okst (let '(j, st') := r in match j with
                        | None => loop rs f E d c (Datatypes.S pc) st'
                        | Some dd => match jump_target (Datatypes.S pc) dd (length c) with Some pc' => loop rs f E d c pc' st' | None => mfail ERuntime end end)
                       (let '(j, st') := r in match j with
                        | None => loop rs f E' d c (Datatypes.S pc) st'
                        | Some dd => match jump_target (Datatypes.S pc) dd (length c) with Some pc' => loop rs f E' d c pc' st' | None => mfail ERuntime end end)).
    { intros [j st'] Hj. unfold okj in Hj. cbn [snd] in Hj. destruct j as [dd|]; [|apply IH; left; exact Hj].
      destruct (jump_target (Datatypes.S pc) dd (length c)); [apply IH; left; exact Hj|apply meq_fail]. }
    destruct Hat as [Hst|(n & st0 & -> & Hst0 & Hn)].
    - destruct (nth_error c pc) as [i|] eqn:Ni; [|apply meq_ret; exact Hst].
      destruct i; try (eapply meq_bind; [apply rel_step; [exact I|exact Hst]|exact Next]).
      destruct (okc_nth S c pc v Hc Ni) as [(n & Np & Na)|Hv].
      + (* a field name or a callee: it stays as it is for the Access or Call that follows *)
        rewrite Np in Ni. injection Ni as <-. cbn [step]. apply meq_bind_ret. apply IH. right. exists n, st. auto.
      + eapply meq_bind; [apply rel_step; [exact Hv|exact Hst]|exact Next].
    - destruct Hn as [Hn|(k & Hn)]; rewrite Hn.
      + eapply meq_bind; [apply rel_step_access; exact Hst0|exact Next].
      + eapply meq_bind; [apply rel_step_call; split; [exact Hst0|exact I]|exact Next].
  Qed.

  Lemma rel_finish resolve st : okst st -> meq okv (finish rs E d resolve st) (finish rs E' d resolve st).
  Proof.
    intros H. unfold finish. destruct resolve.
    - eapply meq_bind; [apply rel_pop; exact H|]. intros [x st'] [Hx _]. cbn [fst] in *.
      eapply meq_bind; [apply rel_into_value; exact Hx|]. intros v Hv. unfold into_result. destruct v; try (apply meq_ret; exact Hv). apply meq_fail.
    - destruct st as [|[v|b n o] st']; try apply meq_fail. inversion H as [|? ? Hv _]; subst. unfold into_result.
      destruct v; try (apply meq_ret; exact Hv); try apply meq_fail.
      rewrite <- (agree_param S E E' s HA Hv). destruct (env_param E s) as [v|] eqn:P; [|apply meq_ret; exact Hv].
      assert (okv v) by (unfold env_param in P; destruct (e_bound E); [eapply ag_okparams; eauto|discriminate]).
      destruct v; try (apply meq_ret; assumption). apply meq_fail.
  Qed.
End Traversal.

Theorem vm_relevant S fuel E E' c r d : agree S E E' -> okc S c ->
  meq (okv S) (run fuel E c r d) (run fuel E' c r d).
Proof.
  revert E E' c r d. induction fuel as [|f IH]; intros E E' c r d HA Hc; [intros lg; split; [reflexivity|intros; discriminate]|].
  cbn [run]. destruct (Nat.ltb 32 (Datatypes.S d)); [apply meq_fail|].
  eapply meq_bind.
  - apply (rel_loop S (run f) IH E E' HA (Datatypes.S d) c Hc f 0%nat []). left. constructor.
  - intros st Hst. apply (rel_finish S (run f) IH E E' HA (Datatypes.S d) r st Hst).
Qed.

Corollary vm_same_outcome S fuel E E' c r d lg : agree S E E' -> okc S c ->
  run fuel E c r d lg = run fuel E' c r d lg.
Proof. intros A H. exact (proj1 (vm_relevant S fuel E E' c r d A H lg)). Qed.
