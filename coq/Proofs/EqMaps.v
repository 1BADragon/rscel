(* Proofs/EqMaps.v — C04: == is reflexive on all NaN-free data values, maps included.
   The two loops of [eq_], over the elements of a list and over the entries of a
   map, are named here so that statements about them need not quote [eq_]. *)
From Coq Require Import ZArith List Bool Lia.
From Rscel Require Import Base.Prims Base.F64 Base.Text Model.Value Model.Ops Spec.Wf.
From Rscel Require Import Proofs.OpsArith Proofs.OpsOrder Proofs.OpsColl Proofs.ValueInd.
Import ListNotations.
Open Scope Z_scope.

(** scalar data, lists and maps of them (nested), without NaN *)
Fixpoint data (v : value) : bool :=
  match v with
  | VInt _ | VUInt _ | VBool _ | VString _ | VBytes _ | VNull | VType _ | VTime _ | VDur _ => true
  | VFloat f => negb (f64_is_nan f)
  | VList l => (fix go (l : list value) := match l with [] => true | x :: r => data x && go r end) l
  | VMap m => (fix go (m : list (bytes * value)) := match m with [] => true | (_, x) :: r => data x && go r end) m
  | _ => false
  end.

Lemma data_list l : data (VList l) = forallb data l.
Proof. induction l as [|x l IH]; [reflexivity|]. cbn [data forallb] in *. rewrite IH. reflexivity. Qed.

Lemma data_map m : data (VMap m) = forallb (fun kv => data (snd kv)) m.
Proof. induction m as [|[k x] m IH]; [reflexivity|]. cbn [data forallb snd] in *. rewrite IH. reflexivity. Qed.

Lemma wf_map m : wf (VMap m) = keys_sorted (map fst m) && forallb (fun kv => bytes_ok (fst kv) && wf (snd kv)) m.
Proof.
  cbn [wf]. f_equal. induction m as [|[k x] m IH]; [reflexivity|]. cbn [forallb fst snd]. rewrite IH. reflexivity.
Qed.

Lemma wf_map_parts m : wf (VMap m) = true -> smap m /\ (forall k x, In (k, x) m -> wf x = true).
Proof.
  rewrite wf_map, andb_true_iff, forallb_forall. intros [Hk Hv]. split; [apply keys_sorted_smap; exact Hk|].
  intros k x Hin. apply Hv in Hin. apply andb_true_iff in Hin. apply Hin.
Qed.

Lemma plain_data : forall v, plain v = true -> data v = true.
Proof.
  induction v as [l IH|m _|v Hv] using value_ind_nested.
  - rewrite plain_list, data_list, !forallb_forall. rewrite Forall_forall in IH. auto.
  - discriminate.
  - destruct v; try contradiction; exact (fun H => H).
Qed.

(** [eq_] on two lists compares the lengths, then the elements in turn up to the first that differ *)
Definition list_eq_loop :=
  fix go (l r : list value) : value :=
    match l, r with
    | x :: l', y :: r' =>
        match eq_ x y with
        | VErr e => VErr e
        | o => if is_true o then go l' r' else VBool false
        end
    | _, _ => VBool true
    end.

Lemma eq_list l r : eq_ (VList l) (VList r) = if negb (zlen l =? zlen r) then VBool false else list_eq_loop l r.
Proof. reflexivity. Qed.

(** ... and on two maps looks every entry of the left one up in the right one, then compares the sizes *)
Definition all_in (f : value -> value -> bool) (r : list (bytes * value)) :=
  fix go (l : list (bytes * value)) : bool :=
    match l with
    | [] => true
    | (k, x) :: l' => match map_get r k with Some y => f x y && go l' | None => false end
    end.

Lemma eq_map l r :
  eq_ (VMap l) (VMap r) = if all_in (fun x y => is_true (eq_ x y)) r l then VBool (zlen l =? zlen r) else VBool false.
Proof. reflexivity. Qed.

Lemma all_in_spec f r l :
  all_in f r l = true <-> (forall k x, In (k, x) l -> exists y, map_get r k = Some y /\ f x y = true).
Proof.
  induction l as [|[k x] l IH]; cbn [all_in].
  - split; [intros _ k x []|reflexivity].
  - destruct (map_get r k) as [y|] eqn:G.
    + rewrite andb_true_iff, IH. split.
      * intros [Hf Hr] k' x' [E|Hin]; [injection E as <- <-; eauto|auto].
      * intros H. split.
        -- destruct (H k x (or_introl eq_refl)) as (y' & G' & Hf). rewrite G in G'. injection G' as <-. exact Hf.
        -- intros k' x' Hin. apply H. right. exact Hin.
    + split; [discriminate|]. intros H. destruct (H k x (or_introl eq_refl)) as (y & G' & _). rewrite G in G'. discriminate G'.
Qed.

Lemma list_eq_loop_refl l : Forall (fun x => eq_ x x = VBool true) l -> list_eq_loop l l = VBool true.
Proof. induction 1 as [|x l Hx _ IH]; [reflexivity|]. cbn [list_eq_loop]. rewrite Hx. exact IH. Qed.

Lemma all_in_refl f m : smap m -> (forall k x, In (k, x) m -> f x x = true) -> all_in f m m = true.
Proof. intros Hs Hf. apply all_in_spec. intros k x Hin. exists x. split; [apply in_map_get; assumption|eauto]. Qed.

Lemma eq_refl_data_all : forall v, wf v = true -> data v = true -> eq_ v v = VBool true.
Proof.
  induction v as [l IH|m IH|v Hv] using value_ind_nested; intros Hw Hd.
  - rewrite eq_list, Z.eqb_refl. apply list_eq_loop_refl.
    rewrite wf_list in Hw. rewrite data_list in Hd. rewrite forallb_forall in Hw, Hd. rewrite Forall_forall in *. auto.
  - destruct (wf_map_parts m Hw) as [Hs Hv]. rewrite data_map, forallb_forall in Hd. rewrite Forall_forall in IH.
    rewrite eq_map, Z.eqb_refl, all_in_refl; [reflexivity|exact Hs|].
    intros k x Hin. specialize (IH (k, x) Hin (Hv k x Hin) (Hd _ Hin)). cbn [snd] in IH. rewrite IH. reflexivity.
  - destruct v; try contradiction; try discriminate Hd; apply eq_refl_scalar; (exact Hw || exact Hd || reflexivity).
Qed.

Theorem eq_refl_data : forall n v, (vsize v < n)%nat -> wf v = true -> data v = true -> eq_ v v = VBool true.
Proof. intros n v _. apply eq_refl_data_all. Qed.

Theorem eq_refl_plain : forall n v, (vsize v < n)%nat -> wf v = true -> plain v = true -> eq_ v v = VBool true.
Proof. intros n v _ Hw Hp. apply eq_refl_data_all; [exact Hw|apply plain_data; exact Hp]. Qed.
