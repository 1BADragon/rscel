(* Proofs/ParseAssoc.v — C02: every binary level of the parser is the same
   left-associative loop over the next tighter level; the conditional nests to
   the right in its else branch; parentheses restart at the loosest level. *)
From Coq Require Import ZArith List Bool Lia.
From Rscel Require Import Base.Prims Base.F64 Base.Text Model.Value Model.Lexer Model.Ast Model.Parser Proofs.ParseCases.
Import ListNotations.
Open Scope Z_scope.

Section LLoop.
  Context {A B O : Type}.
  Variable opof : token -> option O.
  Variable rhs : P B.
  Variable mk : A -> O -> B -> A.

  (** [chain t items t']: from tokenizer state t the input continues with the
      operators and right operands [items] (each operand parsed by [rhs]) and
      then with something that is not an operator of this level *)
  Inductive chain : tokenizer -> list (O * B) -> tokenizer -> Prop :=
  | ch_end t o t1 :
      peek t = POk o t1 ->
      match o with Some tk => opof (t_tok tk) = None | None => True end ->
      chain t [] t1
  | ch_step t tk t1 x t2 op b t3 items tend :
      peek t = POk (Some tk) t1 -> opof (t_tok tk) = Some op ->
      next t1 = POk x t2 -> rhs t2 = POk b t3 -> chain t3 items tend ->
      chain t ((op, b) :: items) tend.

  (** operators of equal precedence group to the left: the loop folds its
      operands from the left, whatever their number *)
  Theorem lloop_left_assoc t items tend : chain t items tend ->
    forall n acc, (length items < n)%nat ->
      lloop n opof rhs mk acc t = POk (fold_left (fun a ob => mk a (fst ob) (snd ob)) items acc) tend.
  Proof.
    induction 1 as [t o t1 Hp Ho|t tk t1 x t2 op b t3 items tend Hp Ho Hn Hr Hc IH]; intros n acc Hl.
    - destruct n as [|n]; [cbn in Hl; lia|]. cbn [lloop]. unfold pbind. rewrite Hp.
      destruct o as [tk|]; [rewrite Ho|]; reflexivity.
    - destruct n as [|n]; [cbn in Hl; lia|]. cbn [lloop]. unfold pbind at 1. rewrite Hp, Ho.
      unfold pbind at 1. rewrite Hn. unfold pbind at 1. rewrite Hr. cbn [length] in Hl.
      rewrite IH by lia. reflexivity.
  Qed.
End LLoop.

(** The precedence ladder: each level is that loop over the next tighter one
    (||  &&  relations  + -  * / %  unary), by definition of the parser. *)
Theorem levels_are_left_loops rec_expr rec_src :
  p_cor rec_expr rec_src =
    (let! u := p_cand rec_expr rec_src in
     fun t => lloop (loop_fuel t) (fun k => match k with TOrOr => Some tt | _ => None end) (p_cand rec_expr rec_src)
                (fun acc _ b => OrBin (surrounding (cor_range acc) (cand_range b)) acc b) (OrUn (cand_range u) u) t) /\
  p_cand rec_expr rec_src =
    (let! u := p_rel rec_expr rec_src in
     fun t => lloop (loop_fuel t) (fun k => match k with TAndAnd => Some tt | _ => None end) (p_rel rec_expr rec_src)
                (fun acc _ b => AndBin (surrounding (cand_range acc) (rel_range b)) acc b) (AndUn (rel_range u) u) t) /\
  p_rel rec_expr rec_src =
    (let! u := p_addn rec_expr rec_src in
     fun t => lloop (loop_fuel t) relop_of (p_addn rec_expr rec_src)
                (fun acc op b => RelBin (surrounding (rel_range acc) (addn_range b)) acc op b) (RelUn (addn_range u) u) t) /\
  p_addn rec_expr rec_src =
    (let! u := p_mult rec_expr rec_src in
     fun t => lloop (loop_fuel t) addop_of (p_mult rec_expr rec_src)
                (fun acc op b => AddBin (surrounding (addn_range acc) (mult_range b)) acc op b) (AddUn (mult_range u) u) t) /\
  p_mult rec_expr rec_src =
    (let! u := p_unary rec_expr rec_src in
     fun t => lloop (loop_fuel t) mulop_of (p_unary rec_expr rec_src)
                (fun acc op b => MulBin (surrounding (mult_range acc) (unary_range b)) acc op b) (MulUn (unary_range u) u) t).
Proof. repeat split. Qed.

(** which tokens belong to which level: the relations include `in`; the
    additive and multiplicative operators are disjoint from everything looser *)
Theorem operator_classes :
  (forall t, relop_of t <> None <-> In t [TLessThan; TLessEqual; TEqualEqual; TNotEqual; TGreaterEqual; TGreaterThan; TIn]) /\
  (forall t, addop_of t <> None <-> In t [TAdd; TMinus]) /\
  (forall t, mulop_of t <> None <-> In t [TMultiply; TDivide; TMod]).
Proof.
  repeat split; intros H; try (destruct t; cbn in *; try congruence; tauto);
    try (cbn in H; repeat (destruct H as [<-|H]; [cbn; discriminate|]); destruct H).
Qed.

(** the conditional: condition and then-branch are or-level expressions, the
    else branch is a whole expression again (so a ? b : c ? d : e nests to the
    right, and a ? b : c || d keeps the || inside the else branch) *)
Theorem ternary_shape rec_expr rec_src t o t0 l t1 q t2 x t3 tc t4 col t5 fc t6 :
  peek t = POk o t0 -> (forall ml, o <> Some (mkTok TMatch ml)) ->
  p_cor rec_expr rec_src t0 = POk l t1 ->
  peek t1 = POk q t2 -> is_tok q TQuestion = true ->
  next t2 = POk x t3 -> p_cor rec_expr rec_src t3 = POk tc t4 ->
  next t4 = POk col t5 -> is_tok col TColon = true ->
  rec_expr t5 = POk fc t6 ->
  p_expr_body rec_expr rec_src t = POk (ETernary (surrounding (cor_range l) (expr_range fc)) l tc fc) t6.
Proof.
  intros Hp Hm Hl Hq Hq' Hn Htc Hc Hc' Hf. rewrite p_expr_body_eq. unfold pbind at 1. rewrite Hp.
  destruct (match_tok o) as [ml|] eqn:E; [apply match_tok_some in E; elim (Hm _ E)|]. unfold p_cond.
  unfold pbind at 1. rewrite Hl. unfold pbind at 1. rewrite Hq, Hq'. unfold pbind at 1. rewrite Hn.
  unfold pbind at 1. rewrite Htc. unfold pbind at 1. rewrite Hc, Hc'. cbn [negb]. unfold pbind. rewrite Hf. reflexivity.
Qed.

Theorem no_question_is_plain rec_expr rec_src t o t0 l t1 q t2 :
  peek t = POk o t0 -> (forall ml, o <> Some (mkTok TMatch ml)) ->
  p_cor rec_expr rec_src t0 = POk l t1 -> peek t1 = POk q t2 -> is_tok q TQuestion = false ->
  p_expr_body rec_expr rec_src t = POk (EUnary (cor_range l) l) t2.
Proof.
  intros Hp Hm Hl Hq Hq'. rewrite p_expr_body_eq. unfold pbind at 1. rewrite Hp.
  destruct (match_tok o) as [ml|] eqn:E; [apply match_tok_some in E; elim (Hm _ E)|]. unfold p_cond.
  unfold pbind at 1. rewrite Hl. unfold pbind at 1. rewrite Hq, Hq'. reflexivity.
Qed.

(** parentheses restart at the loosest level: what stands between them is a whole expression *)
Theorem parens_restart rec_expr rec_src t l t1 e t2 rl t3 :
  next t = POk (Some (mkTok TLParen l)) t1 -> rec_expr t1 = POk e t2 ->
  next t2 = POk (Some (mkTok TRParen rl)) t3 ->
  p_primary rec_expr rec_src t = POk (PrParens (surrounding l rl) e) t3.
Proof.
  intros H1 H2 H3. unfold p_primary. unfold pbind at 1. rewrite H1. unfold pbind at 1. rewrite H2.
  unfold pbind. rewrite H3. reflexivity.
Qed.

Fixpoint oplist_len (o : oplist) : nat := match o with OLEmpty _ => O | OLCons _ tl => S (oplist_len tl) end.
