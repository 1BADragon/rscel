(* Proofs/Total.v — C01: the VM model never answers with the panic outcome: every path through every
   built-in function and type constructor, every instruction, macro and nested run ends in a value, an
   error, "out of fuel" or "not modelled".  The two guards that bound the parser's recursion (nesting
   depth, prefix runs) are stated at the end. *)
From Coq Require Import ZArith List.
From Rscel Require Import Base.Prims Model.Value Model.Funcs Model.Interp
     Model.Lexer Model.Parser Proofs.Relevance.
Import ListNotations.
Open Scope Z_scope.

Definition np {A} (m : M A) : Prop := forall lg, fst (m lg) <> RPanic.

Lemma np_ret {A} (a : A) : np (mret a).
Proof. intros lg. cbn. discriminate. Qed.
Lemma np_fail {A} e : np (@mfail A e).
Proof. intros lg. cbn. discriminate. Qed.
Lemma np_fail_runtime {A} e : np (@mfail_runtime A e).
Proof. intros lg. cbn. discriminate. Qed.
Lemma np_note E b : np (note_clock E b).
Proof. intros lg. cbn. discriminate. Qed.
Lemma np_lift {A} (r : res A) : r <> RPanic -> np (mlift r).
Proof. intros H lg. exact H. Qed.
Lemma np_bind {A B} (m : M A) (f : A -> M B) : np m -> (forall a, np (f a)) -> np (mbind m f).
Proof.
  intros Hm Hf lg. unfold mbind. specialize (Hm lg). destruct (m lg) as [[a|e| | |] lg']; cbn in *;
    try discriminate; try congruence; try apply Hf.
Qed.

(** The built-in table: the sweep that shows a built-in answers only with what its arguments held
    (Relevance.v) excludes the panic outcome on the way; with every name allowed it asks nothing of the arguments. *)
Theorem construct_type_never_panics now tname args : construct_type now tname args <> RPanic.
Proof. apply (okr_np (fun _ => True)), ctor_ok. intros x _. apply okv_all. exact (fun _ => I). Qed.

Theorem call_default_never_panics now name this args r : call_default now name this args = Some r -> r <> RPanic.
Proof.
  intros H. apply (okr_np (fun _ => True)). refine (call_default_ok _ now name this args r _ _ H).
  - apply okv_all. exact (fun _ => I).
  - intros x _. apply okv_all. exact (fun _ => I).
Qed.

(** [np] is closed under every construct of the monad: follow the shape of the term; [known] closes the named
    sub-computations (pops, calls, nested runs) and is tried before [np_bind], which would unfold them *)
Ltac np_walk known :=
  repeat first
    [ match goal with
      | |- np (let '(_, _) := ?p in _) => destruct p
      | |- np (match ?x with _ => _ end) => destruct x
      | |- np (if ?b then _ else _) => destruct b
      end
    | apply np_ret | apply np_fail | apply np_fail_runtime | apply np_note | known | apply np_bind; [|intros] ].

Section Total.
  Variable rs : runner.
  Hypothesis Hrs : forall E c r d, np (rs E c r d).

  Variable E : env.
  Variable d : nat.

  Lemma np_resolve_ident name : np (resolve_ident rs E d name).
  Proof. unfold resolve_ident. np_walk ltac:(apply Hrs). Qed.

  Lemma np_pop st : np (pop rs E d st).
  Proof. unfold pop. np_walk ltac:(apply np_resolve_ident). Qed.

  Lemma np_into_value x : np (into_value x).
  Proof. destruct x; [apply np_ret|apply np_fail]. Qed.

  Lemma np_pop_val st : np (pop_val rs E d st).
  Proof. unfold pop_val. np_walk ltac:(first [apply np_pop|apply np_into_value]). Qed.

  Lemma np_pop_noresolve st : np (pop_noresolve st).
  Proof. destruct st; [apply np_fail|apply np_ret]. Qed.

  Lemma np_pop_n n : forall st, np (pop_n rs E d n st).
  Proof. induction n as [|n IH]; intros st; cbn [pop_n]; np_walk ltac:(first [apply np_pop_val|apply IH]). Qed.

  Lemma np_resolve_args args : np (resolve_args rs E d args).
  Proof. induction args as [|a r IH]; cbn [resolve_args]; np_walk ltac:(first [apply Hrs|exact IH]). Qed.

  Lemma np_call_func name this args : np (call_func E name this args).
  Proof.
    unfold call_func. destruct (assoc name (e_ufuncs E)); [intros lg; cbn; discriminate|].
    destruct (call_default (e_now E) name this args) eqn:C; [|apply np_fail]. apply np_lift. exact (call_default_never_panics _ _ _ _ _ C).
  Qed.

  Lemma np_eval_ident c : np (eval_ident rs E c).
  Proof.
    intros lg. unfold eval_ident. pose proof (Hrs (ident_env E) c false O lg) as H.
    destruct (rs (ident_env E) c false O lg) as [[v|e| | |] lg']; cbn in *; try discriminate; try congruence. destruct v; cbn; discriminate.
  Qed.

  Lemma np_run_body E' c : np (run_body rs d E' c).
  Proof.
    intros lg. unfold run_body. pose proof (Hrs E' c true d lg) as H.
    destruct (rs E' c true d lg) as [[v|e| | |] lg']; cbn in *; try discriminate; congruence.
  Qed.

  Lemma np_with_ident c k : (forall x, np (k x)) -> np (with_ident rs E c k).
  Proof. intros Hk. unfold with_ident. apply np_bind; [apply np_eval_ident|]. intros [e|x]; [apply np_ret|apply Hk]. Qed.

  Lemma np_all_loop x body l : np (all_loop rs E d x body l).
  Proof. induction l as [|v l IH]; cbn [all_loop]; np_walk ltac:(first [apply np_run_body|apply IH]). Qed.

  Lemma np_exists_loop x body l : np (exists_loop rs E d x body l).
  Proof. induction l as [|v l IH]; cbn [exists_loop]; np_walk ltac:(first [apply np_run_body|apply IH]). Qed.

  Lemma np_exists_one_loop x body l : forall count, np (exists_one_loop rs E d x body l count).
  Proof. induction l as [|v l IH]; intros count; cbn [exists_one_loop]; np_walk ltac:(first [apply np_run_body|apply IH]). Qed.

  Lemma np_filter_loop x body l : forall acc, np (filter_loop rs E d x body l acc).
  Proof. induction l as [|v l IH]; intros acc; cbn [filter_loop]; np_walk ltac:(first [apply np_run_body|apply IH]). Qed.

  Lemma np_map_loop x pred f l : forall acc, np (map_loop rs E d x pred f l acc).
  Proof. induction l as [|v l IH]; intros acc; cbn [map_loop]; np_walk ltac:(first [apply np_run_body|apply IH]). Qed.

  Lemma np_reduce_loop cur next body l : forall acc, np (reduce_loop rs E d cur next body l acc).
  Proof. induction l as [|v l IH]; intros acc; cbn [reduce_loop]; np_walk ltac:(first [apply np_run_body|apply IH]). Qed.

  Lemma np_coalesce_loop args : np (coalesce_loop rs E d args).
  Proof.
    induction args as [|c r IH]; cbn [coalesce_loop]; [apply np_ret|]. intros lg. pose proof (Hrs E c true d lg) as H.
    destruct (rs E c true d lg) as [[v|e| | |] lg']; cbn in *; try discriminate; try congruence.
    - destruct v; try (cbn; discriminate). apply IH.
    - destruct e; try (cbn; discriminate); apply IH.
  Qed.

  Lemma np_call_macro_impl name this args : np (call_macro_impl rs E d name this args).
  Proof.
    unfold call_macro_impl.
    destruct (bytes_eqb name _).
    { destruct args as [|c [|c2 r]]; try apply np_ret. intros lg. pose proof (Hrs E c true d lg) as H.
      destruct (rs E c true d lg) as [[v|e| | |] lg']; cbn in *; try discriminate; try congruence. destruct e; cbn; discriminate. }
    np_walk ltac:(first [ apply np_coalesce_loop | apply np_with_ident; intros | apply np_run_body
                        | apply np_all_loop | apply np_exists_loop | apply np_exists_one_loop
                        | apply np_filter_loop | apply np_map_loop | apply np_reduce_loop ]).
  Qed.

  Lemma np_call_macro name this args : np (call_macro rs E d name this args).
  Proof. unfold call_macro. destruct (all_code args); [apply np_call_macro_impl|apply np_fail]. Qed.

  Ltac np_parts :=
    np_walk ltac:(first [ apply np_pop_val | apply np_pop_noresolve | apply np_pop_n | apply np_resolve_args
                        | apply np_call_func | apply np_call_macro | apply np_lift, construct_type_never_panics ]).

  Theorem np_step i st : np (step rs E d i st).
  Proof.
    destruct i; cbn [step]; try solve [np_parts].
    - (* the dictionary literal and the string format run local loops: one induction each *)
      match goal with |- np (?g (Z.to_nat n) st [] false) => assert (G : forall k st0 acc bad, np (g k st0 acc bad)); [|apply G] end.
      induction k as [|k IH]; intros st0 acc bad; [destruct bad; apply np_ret|].
      apply np_bind; [apply np_pop_val|]. intros [key st1].
      apply np_bind; [apply np_pop_val|]. intros [v st2]. destruct key; apply IH.
    - apply np_bind; [apply np_pop_n|]. intros [segs st1].
      match goal with |- np (?g (rev segs) []) => assert (G : forall l acc, np (g l acc)); [|apply G] end.
      induction l as [|x l IH]; intros acc; [apply np_ret|]. destruct x; try apply np_fail. apply IH.
  Qed.

  Theorem np_loop : forall fuel c pc st, np (loop rs fuel E d c pc st).
  Proof.
    induction fuel as [|f IH]; intros c pc st; [intros lg; cbn; discriminate|]. cbn [loop].
    np_walk ltac:(first [apply np_step|apply IH]).
  Qed.

  Theorem np_finish resolve st : np (finish rs E d resolve st).
  Proof. unfold finish, into_result. np_walk ltac:(first [apply np_pop|apply np_into_value]). Qed.
End Total.

Theorem vm_never_panics fuel E c r d lg : fst (run fuel E c r d lg) <> RPanic.
Proof.
  revert E c r d lg. induction fuel as [|f IH]; intros E c r d; [intros lg; cbn; discriminate|]. cbn [run].
  destruct (Nat.ltb 32 (S d)); [apply np_fail|]. apply np_bind; [apply np_loop; exact IH|]. intros st. apply np_finish. exact IH.
Qed.

Theorem exec_is_total fuel E name :
  match fst (exec fuel E name) with
  | ROk _ | RErr _ | RFuel | RUnmod => True
  | RPanic => False
  end.
Proof.
  unfold exec. destruct (assoc name (e_progs E)) as [c|]; [|exact I].
  pose proof (vm_never_panics fuel E c true O []) as H. destruct (run fuel E c true 0 []) as [[v|e| | |] lg]; try exact I. exact (H eq_refl).
Qed.

(** an expression that would be the 33rd open level is refused before anything is read *)
Theorem nesting_guard fuel depth t : 32 <= depth -> p_expr_at (S fuel) depth t = PErr (tz_loc t).
Proof. intros H. cbn [p_expr_at]. assert (E : (32 <=? depth) = true) by (apply Z.leb_le; exact H). rewrite E. reflexivity. Qed.

(** a prefix run that is already 256 calls deep is refused *)
Theorem prefix_run_guard n k cnt t : 256 <= cnt ->
  p_oplist (S n) k cnt t = PErr (tz_loc t).
Proof. intros H. cbn [p_oplist]. assert (E : (256 <=? cnt) = true) by (apply Z.leb_le; exact H). rewrite E. reflexivity. Qed.
