(* Proofs/CompileMonad.v — the compiler's state monad [C] (a label counter threaded through) read backwards:
   what a successful bind, return or label allocation tells about its parts, and what [check_for_const],
   the one step of the compiler that runs the VM, does with the outcome of that run. *)
From Coq Require Import ZArith List Bool.
From Rscel Require Import Base.Prims Model.Value Model.Interp Model.Compile.
Import ListNotations.

Lemma cbind_ok {A B} (m : C A) (f : A -> C B) n b n2 :
  cbind m f n = COk b n2 -> exists a n1, m n = COk a n1 /\ f a n1 = COk b n2.
Proof. unfold cbind. destruct (m n) as [a n1| | | |]; try discriminate. intros H. eauto. Qed.

Tactic Notation "cinv" hyp(H) "as" simple_intropattern(a) ident(n1) ident(Ha) :=
  apply cbind_ok in H; destruct H as (a & n1 & Ha & H).
Tactic Notation "cinv" hyp(H) :=
  let a := fresh "a" in let n1 := fresh "n" in let Ha := fresh "Hc" in cinv H as a n1 Ha.

Lemma cret_ok {A} (a : A) n b n2 : cret a n = COk b n2 -> b = a /\ n2 = n.
Proof. unfold cret. intros H. injection H as <- <-. auto. Qed.

Lemma cbind_ret_ok {A B} (m : C A) (g : A -> B) n b n' :
  (let+ a := m in cret (g a)) n = COk b n' -> exists a, m n = COk a n' /\ b = g a.
Proof.
  intros H. apply cbind_ok in H. destruct H as (a & n1 & Ha & H). apply cret_ok in H. destruct H as [-> ->]. eauto.
Qed.

Lemma cbind2_ok {A B D} (m1 : C A) (m2 : C B) (g : A -> B -> D) n d n2 :
  (let+ a := m1 in let+ b := m2 in cret (g a b)) n = COk d n2 ->
  exists a n1 b, m1 n = COk a n1 /\ m2 n1 = COk b n2 /\ d = g a b.
Proof.
  intros H. apply cbind_ok in H. destruct H as (a & n1 & Ha & H). apply cbind_ret_ok in H. destruct H as (b & Hb & ->).
  eauto 6.
Qed.

Lemma cbind_new_label {B} (f : nat -> C B) n : cbind new_label f n = f n (S n).
Proof. reflexivity. Qed.

Lemma resolve_or_panic_ok c n bc n' : resolve_or_panic c n = COk bc n' -> resolve c = Some bc /\ n' = n.
Proof. unfold resolve_or_panic. destruct (resolve c); [|discriminate]. intros H. injection H as <- <-. auto. Qed.

Lemma check_for_const_eq fuel node n bc : resolve (into_bytecode (cp_node node)) = Some bc ->
  check_for_const fuel node n =
  match run fuel compile_env bc true O [] with
  | (ROk v, lg) => COk (mkCP (if runtime_requested lg || contains_err v then NBytecode (of_code bc) else NConst v) (cp_params node)) n
  | (RErr _, _) => COk (mkCP (NBytecode (of_code bc)) (cp_params node)) n
  | (RPanic, _) => CPanic
  | (RFuel, _) => CFuel
  | (RUnmod, _) => CUnmod
  end.
Proof.
  intros Hr. unfold check_for_const, cbind, resolve_or_panic. rewrite Hr.
  destruct (run fuel compile_env bc true O []) as [[v|e| | |] lg]; try reflexivity. destruct (_ || _); reflexivity.
Qed.

Lemma check_for_const_ok fuel node n cp n' : check_for_const fuel node n = COk cp n' ->
  exists bc, resolve (into_bytecode (cp_node node)) = Some bc /\ cp_params cp = cp_params node /\
    (cp_node cp = NBytecode (of_code bc) \/
     exists v lg, cp_node cp = NConst v /\ run fuel compile_env bc true O [] = (ROk v, lg) /\ runtime_requested lg = false).
Proof.
  destruct (resolve (into_bytecode (cp_node node))) as [bc|] eqn:Hr;
    [|unfold check_for_const, cbind, resolve_or_panic; rewrite Hr; discriminate].
  rewrite (check_for_const_eq fuel node n bc Hr). intros H. exists bc. split; [reflexivity|].
  destruct (run fuel compile_env bc true O []) as [[v|e| | |] lg]; try discriminate H; injection H as <- _; (split; [reflexivity|]).
  - destruct (runtime_requested lg) eqn:M; [left; reflexivity|]. destruct (contains_err v); [left; reflexivity|].
    right. exists v, lg. auto.
  - left. reflexivity.
Qed.

Lemma check_for_const_counter fuel node n cp n' : check_for_const fuel node n = COk cp n' -> n' = n.
Proof.
  unfold check_for_const. intros H. cinv H. apply resolve_or_panic_ok in Hc. destruct Hc as [_ ->].
  destruct (run fuel compile_env a true 0 []) as [[v|e| | |] lg]; try discriminate H;
    [destruct (_ || _)|]; apply cret_ok in H; apply H.
Qed.
