(* Proofs/OpsOrder.v — C04: equality and ordering laws of the value operators: the order on byte
   strings, == on scalars through the widened pair, trichotomy, sort is a sorted permutation, min / max
   return the first least / greatest argument. *)
From Coq Require Import ZArith List Bool Lia Sorting.Permutation Sorting.Sorted.
From Coq Require Import Floats.SpecFloat.
From Flocq Require Import IEEE754.BinarySingleNaN.
From Rscel Require Import Base.Prims Base.F64 Model.Value Model.Ops Model.Dispatch Model.Funcs Spec.Wf.
From Rscel Require Import Proofs.F64Facts Proofs.OpsArith.
Import ListNotations.
Open Scope Z_scope.

(** [!=] is the complement of [==] (and carries the same error). *)
Theorem neq_is_not_eq : forall a b,
  neq a b = match eq_ a b with VBool r => VBool (negb r) | o => o end.
Proof.
  intros a b. unfold neq.
  destruct (is_err a) eqn:Ea; [|destruct (is_err b) eqn:Eb].
  - rewrite error_prop_or_left by exact Ea. destruct a; try discriminate Ea. reflexivity.
  - rewrite error_prop_or_right by assumption. destruct b; try discriminate Eb.
    destruct a; try discriminate Ea; reflexivity.
  - apply error_prop_or_ok; assumption.
Qed.

Lemma bytes_eqb_refl s : bytes_eqb s s = true.
Proof. induction s as [|x s IH]; cbn; [reflexivity|]. rewrite Z.eqb_refl. exact IH. Qed.

Lemma bytes_eqb_sym a : forall b, bytes_eqb a b = bytes_eqb b a.
Proof. induction a as [|x a IH]; destruct b as [|y b]; cbn; try reflexivity. rewrite Z.eqb_sym, IH. reflexivity. Qed.

Lemma bytes_cmp_eq a : forall b, bytes_cmp a b = Eq <-> a = b.
Proof.
  induction a as [|x a IH]; destruct b as [|y b]; cbn; split; intros H; try discriminate; try reflexivity.
  - destruct (x ?= y) eqn:C; try discriminate. apply Z.compare_eq in C. apply IH in H. congruence.
  - injection H as -> ->. rewrite Z.compare_refl. apply IH. reflexivity.
Qed.

Lemma bytes_cmp_refl a : bytes_cmp a a = Eq.
Proof. apply bytes_cmp_eq. reflexivity. Qed.

Lemma bytes_cmp_antisym a : forall b, bytes_cmp b a = CompOpp (bytes_cmp a b).
Proof.
  induction a as [|x a IH]; destruct b as [|y b]; cbn; try reflexivity.
  rewrite (Z.compare_antisym x y). destruct (x ?= y); cbn; auto.
Qed.

Lemma bytes_cmp_lt_trans a : forall b c, bytes_cmp a b = Lt -> bytes_cmp b c = Lt -> bytes_cmp a c = Lt.
Proof.
  induction a as [|x a IH]; destruct b as [|y b]; destruct c as [|z c]; cbn; intros H1 H2; try discriminate; try reflexivity.
  destruct (x ?= y) eqn:C1; try discriminate; destruct (y ?= z) eqn:C2; try discriminate.
  - apply Z.compare_eq in C1, C2. subst. rewrite Z.compare_refl. eapply IH; eauto.
  - apply Z.compare_eq in C1. subst. rewrite C2. reflexivity.
  - apply Z.compare_eq in C2. subst. rewrite C1. reflexivity.
  - rewrite Z.compare_lt_iff in *. assert (x < z) by lia. rewrite (proj2 (Z.compare_lt_iff x z)); auto.
Qed.

Lemma bytes_eqb_cmp a b : bytes_eqb a b = match bytes_cmp a b with Eq => true | _ => false end.
Proof.
  revert b. induction a as [|x a IH]; destruct b as [|y b]; cbn; try reflexivity.
  rewrite Z.eqb_compare. destruct (x ?= y); [apply IH|reflexivity|reflexivity].
Qed.

Lemma bytes_eqb_eq a : forall b, bytes_eqb a b = true <-> a = b.
Proof. intros b. rewrite bytes_eqb_cmp, <- bytes_cmp_eq. destruct (bytes_cmp a b); split; congruence. Qed.

(** [==] with a scalar on the left: the pair is brought to a common type, then
    like is compared with like.  (The arms are those of [eq_], in its order.) *)
Definition scalar (v : value) : bool :=
  match v with
  | VInt _ | VUInt _ | VFloat _ | VBool _ | VString _ | VBytes _ | VNull | VType _ | VTime _ | VDur _ => true
  | _ => false
  end.

Definition eq_types (p : value * value) : value :=
  match p with
  | (VInt x, VInt y) => VBool (x =? y)
  | (VUInt x, VUInt y) => VBool (x =? y)
  | (VFloat x, VFloat y) => VBool (f64_eqb x y)
  | (VBool x, VBool y) => VBool (Bool.eqb x y)
  | (VString x, VString y) => VBool (bytes_eqb x y)
  | (VBytes x, VBytes y) => VBool (bytes_eqb x y)
  | (VNull, VNull) => VBool true
  | (VTime x, VTime y) => VBool (x =? y)
  | (VDur x, VDur y) => VBool (x =? y)
  | (VType x, VType y) => VBool (bytes_eqb x y)
  | _ => VBool false
  end.

Lemma scalar_not_err v : scalar v = true -> is_err v = false.
Proof. destruct v; try discriminate; reflexivity. Qed.

Lemma eq_scalar a b : scalar a = true -> is_err b = false -> eq_ a b = eq_types (type_prop a b).
Proof.
  intros Sa Eb.
  (* conversion unfolds [eq_] on a constructor at no cost; [cbn] on that fixpoint is slow *)
  assert (E : eq_ a b = if is_err b then b else eq_types (type_prop a b)) by (destruct a; try discriminate Sa; reflexivity).
  rewrite E, Eb. reflexivity.
Qed.

(** An int and a uint are equal exactly when they denote the same number. *)
Theorem int_uint_eq_iff_same_number : forall x y,
  in_i64 x = true -> in_u64 y = true ->
  eq_ (VInt x) (VUInt y) = VBool (x =? y) /\ eq_ (VUInt y) (VInt x) = VBool (y =? x).
Proof.
  intros x y Hx Hy. apply in_i64_spec in Hx.
  rewrite !eq_scalar by reflexivity. cbn [type_prop].
  destruct (Z.leb_spec y i64_max); cbn [eq_types]; [split; reflexivity|].
  rewrite (proj2 (Z.eqb_neq x y)), (proj2 (Z.eqb_neq y x)) by lia. split; reflexivity.
Qed.

(** An integer meets a double as its nearest double. *)
Theorem int_double_eq_nearest : forall x f,
  eq_ (VInt x) (VFloat f) = VBool (f64_eqb (f64_of_Z x) f) /\
  eq_ (VFloat f) (VInt x) = VBool (f64_eqb f (f64_of_Z x)) /\
  eq_ (VUInt x) (VFloat f) = VBool (f64_eqb (f64_of_Z x) f).
Proof. intros. repeat split. Qed.

Inductive cclass := KNum | KString | KBytes | KTime | KDur.
Definition class_of (v : value) : option cclass :=
  match v with
  | VInt _ | VUInt _ | VFloat _ | VBool _ => Some KNum
  | VString _ => Some KString | VBytes _ => Some KBytes
  | VTime _ => Some KTime | VDur _ => Some KDur
  | _ => None
  end.
Definition cclass_eqb (a b : cclass) : bool :=
  match a, b with
  | KNum, KNum | KString, KString | KBytes, KBytes | KTime, KTime | KDur, KDur => true
  | _, _ => false
  end.

Lemma class_of_scalar v k : class_of v = Some k -> scalar v = true.
Proof. destruct v; try discriminate; reflexivity. Qed.

(** Comparing values of unrelated types is an error; values of one class are always comparable
    (up to NaN, where the comparison is [None]). *)
Theorem ord_classes : forall a b,
  match class_of a, class_of b with
  | Some ka, Some kb => if cclass_eqb ka kb then exists c, ord a b = inl c else ord a b = inr EInvalidOp
  | _, _ => ord a b = inr EInvalidOp
  end.
Proof.
  intros a b. destruct a; try reflexivity; destruct b; try reflexivity; try (eexists; reflexivity).
  all: unfold ord; cbn [class_of cclass_eqb type_prop];
    match goal with |- context [if ?c then _ else _] => destruct c end; eexists; reflexivity.
Qed.

(** Trichotomy: on a comparable pair exactly one of a<b, a==b, a>b holds and
    <= / >= are the unions. *)
Definition is_c (c : comparison) (x : comparison) : bool :=
  match c, x with Lt, Lt | Eq, Eq | Gt, Gt => true | _, _ => false end.

Lemma Zeqb_cmp x y : (x =? y) = is_c (x ?= y) Eq.
Proof. destruct (Z.compare_spec x y); cbn [is_c]; [subst; apply Z.eqb_refl|apply Z.eqb_neq; lia ..]. Qed.

Lemma bool_eqb_cmp x y : Bool.eqb x y = is_c (b2z x ?= b2z y) Eq.
Proof. destruct x, y; reflexivity. Qed.

Lemma eq_types_ord a b c : ord a b = inl (Some c) -> eq_types (type_prop a b) = VBool (is_c c Eq).
Proof.
  unfold ord. destruct (type_prop a b) as [u v].
  destruct u; try discriminate; destruct v; try discriminate; intros [= H]; cbn [eq_types]; f_equal.
  - rewrite <- H. apply Zeqb_cmp.
  - subst c. reflexivity.
  - subst c. reflexivity.
  - rewrite <- H. apply Zeqb_cmp.
  - unfold f64_eqb, SFeqb. fold (f64_cmp f f0). rewrite H. destruct c; reflexivity.
  - rewrite <- H. apply bool_eqb_cmp.
  - rewrite <- H, bytes_eqb_cmp. destruct (bytes_cmp s s0); reflexivity.
  - rewrite <- H, bytes_eqb_cmp. destruct (bytes_cmp s s0); reflexivity.
  - rewrite <- H. apply Zeqb_cmp.
  - rewrite <- H. apply Zeqb_cmp.
Qed.

Theorem ord_trichotomy_any : forall a b c,
  ord a b = inl (Some c) ->
  lt a b = VBool (is_c c Lt) /\ eq_ a b = VBool (is_c c Eq) /\ gt a b = VBool (is_c c Gt) /\
  le a b = VBool (is_c c Lt || is_c c Eq) /\ ge a b = VBool (is_c c Gt || is_c c Eq).
Proof.
  intros a b c H.
  (* a comparable pair is a pair of scalars *)
  pose proof (ord_classes a b) as K. rewrite H in K.
  destruct (class_of a) as [ka|] eqn:Ka; [|discriminate K]. destruct (class_of b) as [kb|] eqn:Kb; [|discriminate K].
  apply class_of_scalar in Ka, Kb.
  pose proof (scalar_not_err a Ka) as Ea. pose proof (scalar_not_err b Kb) as Eb.
  rewrite (eq_scalar a b Ka Eb), (eq_types_ord a b c H).
  unfold lt, gt, le, ge, cmp_with. rewrite !error_prop_or_ok, H by assumption.
  destruct c; repeat split.
Qed.

Theorem ord_trichotomy : forall a b c,
  wf a = true -> wf b = true ->
  ord a b = inl (Some c) ->
  lt a b = VBool (is_c c Lt) /\ eq_ a b = VBool (is_c c Eq) /\ gt a b = VBool (is_c c Gt) /\
  le a b = VBool (is_c c Lt || is_c c Eq) /\ ge a b = VBool (is_c c Gt || is_c c Eq).
Proof. intros a b c _ _. apply ord_trichotomy_any. Qed.

(** int and uint jointly: the order is the order of the numbers. *)
Definition iu_val (v : value) : option Z :=
  match v with VInt x => Some x | VUInt y => Some y | _ => None end.

Theorem ord_int_uint_is_numeric_order : forall a b x y,
  wf a = true -> wf b = true -> iu_val a = Some x -> iu_val b = Some y ->
  ord a b = inl (Some (x ?= y)).
Proof.
  intros a b x y Wa Wb Ha Hb.
  destruct a; try discriminate Ha; destruct b; try discriminate Hb; injection Ha as ->; injection Hb as ->;
    cbn [wf] in *; unfold ord; cbn [type_prop].
  - reflexivity.
  - destruct (Z.leb_spec y i64_max); [reflexivity|].
    apply in_i64_spec in Wa. unfold i64_max in *. f_equal. f_equal. symmetry. apply Z.compare_lt_iff. lia.
  - destruct (Z.leb_spec x i64_max); [reflexivity|].
    apply in_i64_spec in Wb. unfold i64_max in *. f_equal. f_equal. symmetry. apply Z.compare_gt_iff. lia.
  - reflexivity.
Qed.

(** strings and bytes: the lexicographic order on bytes, which is a strict total order *)
Theorem ord_string_bytes : forall x y,
  ord (VString x) (VString y) = inl (Some (bytes_cmp x y)) /\
  ord (VBytes x) (VBytes y) = inl (Some (bytes_cmp x y)).
Proof. intros; split; reflexivity. Qed.

Theorem bytes_cmp_total_order :
  (forall a, bytes_cmp a a = Eq) /\
  (forall a b, bytes_cmp a b = Eq -> a = b) /\
  (forall a b, bytes_cmp b a = CompOpp (bytes_cmp a b)) /\
  (forall a b c, bytes_cmp a b = Lt -> bytes_cmp b c = Lt -> bytes_cmp a c = Lt).
Proof.
  repeat split.
  - exact bytes_cmp_refl.
  - intros a b. apply bytes_cmp_eq.
  - intros a b. apply bytes_cmp_antisym.
  - apply bytes_cmp_lt_trans.
Qed.

(** bool, timestamp, duration: integer order of (0/1, nanoseconds) *)
Theorem ord_bool_time_dur : forall (p q : bool) (x y : Z),
  ord (VBool p) (VBool q) = inl (Some (b2z p ?= b2z q)) /\
  ord (VTime x) (VTime y) = inl (Some (x ?= y)) /\
  ord (VDur x) (VDur y) = inl (Some (x ?= y)).
Proof. intros; repeat split. Qed.

(** doubles: Flocq's comparison, i.e. the order of the real numbers on finite
    operands (and [None] exactly when a NaN is involved). *)
Theorem ord_double_is_real_order : forall f1 f2 : binary_float 53 1024,
  ord (VFloat (B2SF f1)) (VFloat (B2SF f2)) = inl (Bcompare f1 f2) /\
  (is_finite f1 = true -> is_finite f2 = true ->
   Bcompare f1 f2 = Some (Raux.Rcompare (B2R f1) (B2R f2))).
Proof.
  intros f1 f2. split; [reflexivity|]. intros H1 H2. apply Bcompare_correct; assumption.
Qed.

(** the infinities are the ends of the order of doubles: every double that is not a NaN lies between them *)
Theorem ord_double_infinities : forall x : f64, f64_is_nan x = false ->
  (x <> S754_infinity false -> ord (VFloat x) (VFloat (S754_infinity false)) = inl (Some Lt) /\
                               ord (VFloat (S754_infinity false)) (VFloat x) = inl (Some Gt)) /\
  (x <> S754_infinity true -> ord (VFloat (S754_infinity true)) (VFloat x) = inl (Some Lt) /\
                              ord (VFloat x) (VFloat (S754_infinity true)) = inl (Some Gt)) /\
  ord (VFloat (S754_infinity false)) (VFloat (S754_infinity false)) = inl (Some Eq) /\
  ord (VFloat (S754_infinity true)) (VFloat (S754_infinity true)) = inl (Some Eq).
Proof.
  intros x Hn. split; [|split; [|split; reflexivity]].
  - intros Hx. destruct x as [s|s| |s m e]; try discriminate Hn; try (destruct s; split; reflexivity).
    destruct s; [split; reflexivity|exfalso; apply Hx; reflexivity].
  - intros Hx. destruct x as [s|s| |s m e]; try discriminate Hn; try (destruct s; split; reflexivity).
    destruct s; [exfalso; apply Hx; reflexivity|split; reflexivity].
Qed.

Corollary lt_infinities : forall x : f64, f64_is_nan x = false -> x <> S754_infinity false -> x <> S754_infinity true ->
  lt (VFloat (S754_infinity true)) (VFloat x) = VBool true /\ lt (VFloat x) (VFloat (S754_infinity false)) = VBool true /\
  gt (VFloat x) (VFloat (S754_infinity false)) = VBool false /\ lt (VFloat x) (VFloat (S754_infinity true)) = VBool false.
Proof.
  intros x Hn H1 H2. destruct (ord_double_infinities x Hn) as ((A & B) & (C & D) & _); auto.
  unfold lt, gt, cmp_with, error_prop_or. cbn [is_err]. rewrite A, C, D. repeat split; reflexivity.
Qed.

Lemma insert_stable_cons x y l :
  insert_stable x (y :: l) = match ord_some x y with Some Lt => x :: y :: l | _ => y :: insert_stable x l end.
Proof. reflexivity. Qed.

Lemma insert_stable_perm x : forall l, Permutation (x :: l) (insert_stable x l).
Proof.
  induction l as [|y l IH]; [apply Permutation_refl|]. rewrite insert_stable_cons.
  destruct (ord_some x y) as [[]|]; try apply Permutation_refl;
    (eapply Permutation_trans; [apply perm_swap|apply perm_skip; exact IH]).
Qed.

Lemma fold_left_invariant {A B} (f : A -> B -> A) (P : A -> Prop) l :
  (forall a b, In b l -> P a -> P (f a b)) -> forall a, P a -> P (fold_left f l a).
Proof.
  induction l as [|b l IH]; intros Hf a Ha; [exact Ha|]. cbn [fold_left].
  apply IH; [intros a' b' Hb'; apply Hf; right; exact Hb'|apply Hf; [left; reflexivity|exact Ha]].
Qed.

Lemma sort_stable_perm_acc : forall l acc, Permutation (acc ++ l) (fold_left (fun a x => insert_stable x a) l acc).
Proof.
  induction l as [|x l IH]; intros acc; cbn [fold_left]; [rewrite app_nil_r; apply Permutation_refl|].
  eapply Permutation_trans; [|apply IH].
  eapply Permutation_trans; [apply Permutation_sym, Permutation_middle|].
  apply (Permutation_app_tail l (insert_stable_perm x acc)).
Qed.

Theorem sort_is_permutation : forall l l',
  sort_impl l = ROk (VList l') -> Permutation l l'.
Proof.
  intros l l' H. unfold sort_impl in H. destruct l as [|first l0]; [injection H as <-; apply Permutation_refl|].
  destruct (forallb _ _); [|discriminate]. injection H as <-.
  exact (sort_stable_perm_acc (first :: l0) []).
Qed.

Definition le_v (x y : value) : Prop := match ord_some x y with Some Gt | None => False | _ => True end.

(** Sortedness needs the comparator to be a total preorder on the elements:
    that is the meaning of "mutually comparable". *)
Definition total_preorder_on (l : list value) : Prop :=
  (forall x y, In x l -> In y l -> exists c, ord_some x y = Some c /\ ord_some y x = Some (CompOpp c)) /\
  (forall x y z, In x l -> In y l -> In z l -> le_v x y -> le_v y z -> le_v x z).

Lemma insert_stable_hd x y l : le_v y x -> HdRel le_v y l -> HdRel le_v y (insert_stable x l).
Proof.
  intros Hyx Hhd. destruct l as [|z l]; [constructor; exact Hyx|]. rewrite insert_stable_cons.
  inversion Hhd; subst. destruct (ord_some x z) as [[]|]; constructor; assumption.
Qed.

Lemma insert_stable_sorted x : forall l,
  (forall y, In y l -> exists c, ord_some x y = Some c /\ ord_some y x = Some (CompOpp c)) ->
  Sorted le_v l -> Sorted le_v (insert_stable x l).
Proof.
  induction l as [|y l IH]; intros Hl Hs; [repeat constructor|].
  destruct (Hl y (or_introl eq_refl)) as (c & Hc & Hc'). inversion Hs as [|? ? Hs' Hhd]; subst.
  rewrite insert_stable_cons, Hc.
  assert (Hyx : c <> Lt -> Sorted le_v (y :: insert_stable x l)).
  { intros N. constructor; [apply IH; [intros z Hz; apply Hl; right; exact Hz|exact Hs']|].
    apply insert_stable_hd; [|exact Hhd]. unfold le_v. rewrite Hc'. destruct c; [exact I|congruence|exact I]. }
  destruct c; [apply Hyx; discriminate| |apply Hyx; discriminate].
  constructor; [exact Hs|]. constructor. unfold le_v. rewrite Hc. exact I.
Qed.

Theorem sort_is_sorted : forall l l',
  total_preorder_on l -> sort_impl l = ROk (VList l') -> Sorted le_v l'.
Proof.
  intros l l' [Htot _] H. unfold sort_impl in H. destruct l as [|first l0]; [injection H as <-; constructor|].
  destruct (forallb _ _); [|discriminate]. injection H as <-. set (dom := first :: l0) in *.
  apply (fold_left_invariant (fun a x => insert_stable x a)
           (fun acc => (forall y, In y acc -> In y dom) /\ Sorted le_v acc)).
  - intros acc x Hx [Hin Hs]. split.
    + intros y Hy. apply (Permutation_in _ (Permutation_sym (insert_stable_perm x acc))) in Hy.
      destruct Hy as [<-|Hy]; auto.
    + apply insert_stable_sorted; [|exact Hs]. intros y Hy. apply Htot; auto.
  - split; [intros y []|constructor].
Qed.

(** Lists of ints and uints (jointly) are totally preordered, so sort sorts them. *)
Lemma le_v_iu x y zx zy : wf x = true -> wf y = true -> iu_val x = Some zx -> iu_val y = Some zy ->
  le_v x y <-> zx <= zy.
Proof.
  intros Wx Wy Zx Zy. unfold le_v, ord_some, Z.le. rewrite (ord_int_uint_is_numeric_order x y zx zy Wx Wy Zx Zy).
  destruct (zx ?= zy); split; intros H; try exact I; try discriminate; contradiction.
Qed.

Lemma iu_total_preorder l :
  (forall v, In v l -> wf v = true /\ exists z, iu_val v = Some z) -> total_preorder_on l.
Proof.
  intros Hl. split.
  - intros x y Hx Hy. destruct (Hl x Hx) as (Wx & zx & Zx), (Hl y Hy) as (Wy & zy & Zy).
    exists (zx ?= zy). unfold ord_some.
    rewrite (ord_int_uint_is_numeric_order x y zx zy Wx Wy Zx Zy).
    rewrite (ord_int_uint_is_numeric_order y x zy zx Wy Wx Zy Zx).
    split; [reflexivity|]. rewrite (Z.compare_antisym zx zy). reflexivity.
  - intros x y z Hx Hy Hz.
    destruct (Hl x Hx) as (Wx & zx & Zx), (Hl y Hy) as (Wy & zy & Zy), (Hl z Hz) as (Wz & zz & Zz).
    rewrite (le_v_iu x y zx zy), (le_v_iu y z zy zz), (le_v_iu x z zx zz) by assumption. lia.
Qed.

(** min / max: the result is an argument. *)
Lemma pick_in better : forall rest cur, In (pick better cur rest) (cur :: rest).
Proof.
  induction rest as [|v r IH]; intros cur; cbn; [left; reflexivity|].
  destruct (IH (if better v cur then v else cur)) as [H|H].
  - destruct (better v cur); [right; left; auto|left; auto].
  - right. right. assumption.
Qed.

Theorem min_max_is_argument : forall args m,
  (min_impl args = ROk m \/ max_impl args = ROk m) -> args <> [] -> In m args.
Proof.
  intros args m [H|H] Hne; destruct args as [|v r]; try congruence; injection H as <-; apply pick_in.
Qed.

(** size of a value (for induction through the nested lists) *)
Fixpoint vsize (v : value) : nat :=
  match v with
  | VList l => S ((fix go (l : list value) : nat := match l with [] => O | x :: r => (vsize x + go r)%nat end) l)
  | VMap m => S ((fix go (m : list (bytes * value)) : nat := match m with [] => O | (_, x) :: r => (vsize x + go r)%nat end) m)
  | _ => 1%nat
  end.

(** scalar data and (nested) lists of them, without NaN *)
Fixpoint plain (v : value) : bool :=
  match v with
  | VInt _ | VUInt _ | VBool _ | VString _ | VBytes _ | VNull | VType _ | VTime _ | VDur _ => true
  | VFloat f => negb (f64_is_nan f)
  | VList l => (fix go (l : list value) := match l with [] => true | x :: r => plain x && go r end) l
  | _ => false
  end.

Lemma plain_list l : plain (VList l) = forallb plain l.
Proof. induction l as [|x l IH]; [reflexivity|]. cbn [plain forallb] in *. rewrite IH. reflexivity. Qed.

Lemma f64_eqb_refl f : f64_valid f = true -> f64_is_nan f = false -> f64_eqb f f = true.
Proof.
  intros Hv Hn. destruct (valid_is_B2SF f Hv) as [b <-].
  unfold f64_eqb. change (SFeqb (B2SF b) (B2SF b)) with (Beqb b b).
  rewrite Beqb_refl. destruct b; try reflexivity. discriminate Hn.
Qed.

Lemma f64_eqb_sym x y : f64_valid x = true -> f64_valid y = true -> f64_eqb x y = f64_eqb y x.
Proof.
  intros Hx Hy. destruct (valid_is_B2SF x Hx) as [bx <-], (valid_is_B2SF y Hy) as [by_ <-].
  unfold f64_eqb, SFeqb. change (SFcompare (B2SF bx) (B2SF by_)) with (Bcompare bx by_).
  change (SFcompare (B2SF by_) (B2SF bx)) with (Bcompare by_ bx).
  rewrite (Bcompare_swap _ _ by_ bx). destruct (Bcompare by_ bx) as [[]|]; reflexivity.
Qed.

Lemma type_prop_same_plain a : plain a = true -> type_prop a a = (a, a) \/ exists b, a = VBool b.
Proof. intros _. left. apply type_prop_same. Qed.

Lemma eq_refl_scalar v : wf v = true -> scalar v = true -> plain v = true -> eq_ v v = VBool true.
Proof.
  intros Hw Hs Hp. rewrite (eq_scalar v v Hs (scalar_not_err v Hs)), type_prop_same.
  destruct v; try discriminate Hs; cbn [eq_types]; rewrite ?Z.eqb_refl, ?bytes_eqb_refl; try reflexivity.
  - rewrite f64_eqb_refl; [reflexivity|exact Hw|]. cbn [plain] in Hp. destruct (f64_is_nan f); [discriminate Hp|reflexivity].
  - destruct b; reflexivity.
Qed.

Lemma eq_types_sym u v : wf u = true -> wf v = true -> eq_types (v, u) = eq_types (u, v).
Proof.
  intros Wu Wv. destruct u; destruct v; try reflexivity; cbn [eq_types]; f_equal;
    auto using Z.eqb_sym, bytes_eqb_sym, f64_eqb_sym.
  destruct b, b0; reflexivity.
Qed.

(** On scalar operands (any two types) [==] is symmetric. *)
Theorem eq_sym_scalar : forall a b,
  wf a = true -> wf b = true -> scalar a = true -> scalar b = true -> eq_ a b = eq_ b a.
Proof.
  intros a b Wa Wb Sa Sb.
  rewrite (eq_scalar a b Sa (scalar_not_err b Sb)), (eq_scalar b a Sb (scalar_not_err a Sa)), (type_prop_swap a b).
  destruct (type_prop_wf a b Wa Wb) as [Wu Wv]. destruct (type_prop a b) as [u v].
  symmetry. apply eq_types_sym; assumption.
Qed.

(** min / max return the FIRST least / greatest argument.  Generic in the strict order: whenever "better" is
    the strict order induced by a rank on the arguments (every total preorder is), the scan returns the first
    argument of best rank; instantiated for int arguments. *)
Section Pick.
  Variable better : value -> value -> bool.
  Variable rank : value -> Z.

  (** The scan, part-way through [all]: [cur] is the first element of best rank among those seen,
      [pre] the ones seen before it, [mid] the ones seen after it. *)
  Lemma pick_scan all : (forall a b, In a all -> In b all -> better a b = (rank a <? rank b)) ->
    forall rest pre cur mid, all = pre ++ cur :: mid ++ rest ->
    (forall v, In v pre -> rank cur < rank v) -> (forall v, In v mid -> rank cur <= rank v) ->
    exists pre' post, all = pre' ++ pick better cur rest :: post /\
      (forall v, In v pre' -> rank (pick better cur rest) < rank v) /\
      (forall v, In v post -> rank (pick better cur rest) <= rank v).
  Proof.
    intros Hb. induction rest as [|x r IH]; intros pre cur mid E Hpre Hmid; cbn [pick].
    - rewrite app_nil_r in E. eauto.
    - rewrite Hb by (subst all; rewrite !in_app_iff; cbn [In]; rewrite ?in_app_iff; cbn [In]; auto).
      destruct (Z.ltb_spec (rank x) (rank cur)) as [Hlt|Hge].
      + apply (IH (pre ++ cur :: mid) x []).
        * rewrite E, <- app_assoc. reflexivity.
        * intros v Hv. apply in_app_iff in Hv. destruct Hv as [Hv|[<-|Hv]]; [apply Hpre in Hv|..|apply Hmid in Hv]; lia.
        * intros v [].
      + apply (IH pre cur (mid ++ [x])).
        * rewrite E, <- app_assoc. reflexivity.
        * exact Hpre.
        * intros v Hv. apply in_app_iff in Hv. destruct Hv as [Hv|[<-|[]]]; [apply Hmid; exact Hv|exact Hge].
  Qed.

  Theorem pick_first_best : forall rest cur,
    (forall a b, In a (cur :: rest) -> In b (cur :: rest) -> better a b = (rank a <? rank b)) ->
    let m := pick better cur rest in
    (forall v, In v (cur :: rest) -> rank m <= rank v) /\
    exists pre post, cur :: rest = pre ++ m :: post /\ forall v, In v pre -> rank m < rank v.
  Proof.
    intros rest cur Hb m.
    destruct (pick_scan (cur :: rest) Hb rest [] cur [] eq_refl) as (pre & post & E & Hpre & Hpost);
      [intros v []|intros v []|]. fold m in E, Hpre, Hpost.
    split; [|eauto]. intros v Hv. rewrite E in Hv. apply in_app_iff in Hv.
    destruct Hv as [Hv|[<-|Hv]]; [apply Hpre in Hv|..|apply Hpost in Hv]; lia.
  Qed.
End Pick.

Definition irank (v : value) : Z := match v with VInt x => x | _ => 0 end.

(** On int arguments: [sg] is 1 for the least and -1 for the greatest. *)
Lemma pick_ints better (sg : Z) : (forall x y, better (VInt x) (VInt y) = (sg * x <? sg * y)) ->
  forall z zs, exists m pre post, pick better (VInt z) (map VInt zs) = VInt m /\ z :: zs = pre ++ m :: post /\
    (forall v, In v (z :: zs) -> sg * m <= sg * v) /\ (forall v, In v pre -> sg * m < sg * v).
Proof.
  intros Hb z zs.
  destruct (pick_first_best better (fun v => sg * irank v) (map VInt zs) (VInt z)) as [Hmin (pre & post & E & Hpre)].
  { intros a b Ha Hb'. change (VInt z :: map VInt zs) with (map VInt (z :: zs)) in Ha, Hb'.
    apply in_map_iff in Ha, Hb'. destruct Ha as (x & <- & _), Hb' as (y & <- & _). apply Hb. }
  cbv zeta in *. change (VInt z :: map VInt zs) with (map VInt (z :: zs)) in *.
  apply map_eq_app in E. destruct E as (ipre & l2 & E & <- & E2).
  apply map_eq_cons in E2. destruct E2 as (m & ipost & -> & Em & _). rewrite <- Em in *.
  exists m, ipre, ipost. split; [reflexivity|]. split; [exact E|]. split.
  - intros v Hv. apply (Hmin (VInt v)), in_map, Hv.
  - intros v Hv. apply (Hpre (VInt v)), in_map, Hv.
Qed.

Lemma lt_ints x y : is_true (lt (VInt x) (VInt y)) = (x <? y).
Proof. cbn. destruct (x ?= y) eqn:C; unfold Z.ltb; rewrite C; reflexivity. Qed.
Lemma gt_ints x y : is_true (gt (VInt x) (VInt y)) = (y <? x).
Proof. cbn. rewrite Z.compare_antisym. destruct (y ?= x) eqn:C; unfold Z.ltb; rewrite C; reflexivity. Qed.

(** integers: min is the first occurrence of the smallest, max the first occurrence of the largest *)
Theorem min_ints_first_least z zs :
  exists m pre post, min_impl (map VInt (z :: zs)) = ROk (VInt m) /\ z :: zs = pre ++ m :: post /\
    (forall v, In v (z :: zs) -> m <= v) /\ (forall v, In v pre -> m < v).
Proof.
  destruct (pick_ints (fun a b => is_true (lt a b)) 1) with (z := z) (zs := zs) as (m & pre & post & Em & E & Hmin & Hpre).
  { intros x y. rewrite lt_ints, !Z.mul_1_l. reflexivity. }
  exists m, pre, post. cbn [map min_impl]. unfold ok. rewrite Em.
  repeat split; [exact E|intros v Hv; apply Hmin in Hv; lia|intros v Hv; apply Hpre in Hv; lia].
Qed.

Theorem max_ints_first_greatest z zs :
  exists m pre post, max_impl (map VInt (z :: zs)) = ROk (VInt m) /\ z :: zs = pre ++ m :: post /\
    (forall v, In v (z :: zs) -> v <= m) /\ (forall v, In v pre -> v < m).
Proof.
  destruct (pick_ints (fun a b => is_true (gt a b)) (-1)) with (z := z) (zs := zs) as (m & pre & post & Em & E & Hmax & Hpre).
  { intros x y. rewrite gt_ints. destruct (Z.ltb_spec y x), (Z.ltb_spec (-1 * x) (-1 * y)); try reflexivity; lia. }
  exists m, pre, post. cbn [map max_impl]. unfold ok. rewrite Em.
  repeat split; [exact E|intros v Hv; apply Hmax in Hv; lia|intros v Hv; apply Hpre in Hv; lia].
Qed.
