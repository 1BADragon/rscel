(* Proofs/Params.v — C17: the parameter list of a compiled expression is
   exactly the list of its free identifiers (Spec/FreeIdents.v). *)
From Coq Require Import ZArith List Bool Lia.
From Rscel Require Import Base.Prims Base.F64 Base.Text Model.Value Model.Ops Model.Funcs Model.Interp
     Model.Lexer Model.Ast Model.Parser Model.Compile Spec.FreeIdents Proofs.OpsOrder Proofs.Fold.
Import ListNotations.
Open Scope Z_scope.

Section Level.
  Variable fuel : nat.
  Variable rec_expr : expr -> C cprog.
  Variable rec_fi : expr -> list bytes.
  Variable src_fi : chars -> list bytes.
  Hypothesis Hrec : forall e n cp n', rec_expr e n = COk cp n' -> cp_params cp = rec_fi e.
  Hypothesis Hsrc : forall s e t, p_expr fuel (tz_init s) = POk e t -> src_fi s = rec_fi e.

  Lemma c_list_params : forall es n cs n',
    c_list rec_expr es n = COk cs n' -> flat_map cp_params cs = flat_map rec_fi es.
  Proof.
    induction es as [|e r IH]; intros n cs n' H; cbn [c_list] in H.
    - injection H as <- _. reflexivity.
    - cinv H. cinv H. injection H as <- _. cbn [flat_map].
      rewrite (Hrec _ _ _ _ Hc), (IH _ _ _ Hc0). reflexivity.
  Qed.

  Lemma from_children_params cs op f : cp_params (from_children cs op f) = flat_map cp_params cs.
  Proof. unfold from_children. destruct (all_const cs); reflexivity. Qed.

  Lemma c_lit_params l n cp n' : c_lit fuel rec_expr l n = COk cp n' -> cp_params cp = fi_lit src_fi l.
  Proof.
    destruct l; cbn [c_lit]; try (intros H; injection H as <- _; reflexivity).
    cbn [fi_lit]. intros H.
    match type of H with ?go segs [] [] O n = _ =>
      assert (G : forall segs0 acc ps k n0 cp0 n0', go segs0 acc ps k n0 = COk cp0 n0' ->
                  cp_params cp0 = ps ++ flat_map (fun s => match s with FExpr t => src_fi t | FLit _ => [] end) segs0) end.
    { induction segs0 as [|sg r IH]; intros acc ps k n0 cp0 n0' H0.
      - injection H0 as <- _. cbn. rewrite app_nil_r. reflexivity.
      - destruct sg as [s|s].
        + apply IH in H0. exact H0.
        + destruct (p_expr fuel (tz_init s)) as [e t| |] eqn:Hp; try discriminate H0.
          destruct (rec_expr e O) as [cpe ne| | | |] eqn:He; try discriminate H0.
          destruct (resolve (into_bytecode (cp_node cpe))); try discriminate H0.
          apply IH in H0. rewrite H0. unfold union. cbn [flat_map].
          rewrite (Hsrc _ _ _ Hp), <- (Hrec _ _ _ _ He), app_assoc. reflexivity. }
    apply G in H. exact H.
  Qed.

  Lemma c_primary_params p n cp n' :
    c_primary fuel rec_expr p n = COk cp n' -> cp_params cp = fi_primary rec_fi src_fi p.
  Proof.
    destruct p; cbn [c_primary fi_primary]; intros H.
    - injection H as <- _. reflexivity.
    - apply Hrec in H. exact H.
    - cinv H. injection H as <- _. rewrite from_children_params. eapply c_list_params; eauto.
    - cinv H. injection H as <- _. rewrite from_children_params.
      revert a n n0 Hc. induction inits as [|[r0 k v] rest IH]; intros a n n0 Hc.
      + injection Hc as <- _. reflexivity.
      + cinv Hc. cinv Hc. cinv Hc. injection Hc as <- _. cbn [flat_map].
        rewrite (Hrec _ _ _ _ Hc0), (Hrec _ _ _ _ Hc1), (IH _ _ _ Hc2). rewrite <- app_assoc. reflexivity.
    - eapply c_lit_params; eauto.
  Qed.

  Lemma compile2_params i f a b : cp_params (compile2 i f a b) = cp_params a ++ cp_params b.
  Proof. unfold compile2. destruct (cp_node a), (cp_node b); reflexivity. Qed.

  Lemma c_mprime_params cur m n cp n' :
    c_mprime fuel rec_expr cur m n = COk cp n' -> cp_params cp = fi_mprime rec_fi (cp_params cur) m.
  Proof.
    destruct m; cbn [c_mprime fi_mprime]; intros H.
    - destruct (cp_node cur) as [c|o].
      + injection H as <- _. reflexivity.
      + destruct (match o with VMap _ => match access o (utf8_encode name) with VErr _ => None | v => Some v end | _ => None end);
          injection H as <- _; reflexivity.
    - cinv H. destruct (check_for_const_ok _ _ _ _ _ H) as (_ & _ & -> & _). clear H. cbn [cp_params]. unfold union. f_equal.
      revert a n n0 Hc. induction args as [|e rest IH]; intros a n n0 Hc.
      + injection Hc as <- _. reflexivity.
      + cinv Hc. cinv Hc. cinv Hc. injection Hc as <- _. cbn [snd flat_map]. unfold union.
        rewrite (Hrec _ _ _ _ Hc0), (IH _ _ _ Hc2). reflexivity.
    - cinv H. injection H as <- _. rewrite compile2_params, (Hrec _ _ _ _ Hc). reflexivity.
  Qed.

  Lemma c_member_params m n cp n' :
    c_member fuel rec_expr m n = COk cp n' -> cp_params cp = fi_member rec_fi src_fi m.
  Proof.
    destruct m as [r p ms]. cbn [c_member fi_member]. intros H. cinv H.
    apply c_primary_params in Hc. rewrite <- Hc. clear Hc.
    revert a n0 H. induction ms as [|x ms IH]; intros cur n0 H; cbn [fold_left].
    - injection H as <- _. reflexivity.
    - cinv H. apply c_mprime_params in Hc. rewrite <- Hc. eapply IH; eauto.
  Qed.

  Lemma c_unary_params u n cp n' :
    c_unary fuel rec_expr u n = COk cp n' -> cp_params cp = fi_unary rec_fi src_fi u.
  Proof.
    destruct u; cbn [c_unary fi_unary]; intros H.
    - eapply c_member_params; eauto.
    - cinv H. injection H as <- _. cbn. unfold union. rewrite app_nil_r. eapply c_member_params; eauto.
    - cinv H. injection H as <- _. cbn. unfold union. rewrite app_nil_r. eapply c_member_params; eauto.
  Qed.

  Lemma c_mult_params : forall e n cp n', c_mult fuel rec_expr e n = COk cp n' -> cp_params cp = fi_mult rec_fi src_fi e.
  Proof.
    induction e as [r l IH op u|r u]; intros n cp n' H; cbn [c_mult fi_mult] in *.
    - cinv H. cinv H. injection H as <- _.
      destruct op; rewrite compile2_params, (IH _ _ _ Hc), (c_unary_params _ _ _ _ Hc0); reflexivity.
    - eapply c_unary_params; eauto.
  Qed.

  Lemma c_addn_params : forall e n cp n', c_addn fuel rec_expr e n = COk cp n' -> cp_params cp = fi_addn rec_fi src_fi e.
  Proof.
    induction e as [r l IH op u|r u]; intros n cp n' H; cbn [c_addn fi_addn] in *.
    - cinv H. cinv H. injection H as <- _.
      destruct op; rewrite compile2_params, (IH _ _ _ Hc), (c_mult_params _ _ _ _ Hc0); reflexivity.
    - eapply c_mult_params; eauto.
  Qed.

  Lemma c_rel_params : forall e n cp n', c_rel fuel rec_expr e n = COk cp n' -> cp_params cp = fi_rel rec_fi src_fi e.
  Proof.
    induction e as [r l IH op u|r u]; intros n cp n' H; cbn [c_rel fi_rel] in *.
    - cinv H. cinv H. injection H as <- _.
      destruct op; rewrite compile2_params, (IH _ _ _ Hc), (c_addn_params _ _ _ _ Hc0); reflexivity.
    - eapply c_addn_params; eauto.
  Qed.

  Lemma c_cand_chain_params : forall e lbl n cp n',
    c_cand_chain fuel rec_expr e lbl n = COk cp n' -> cp_params cp = fi_cand rec_fi src_fi e.
  Proof.
    induction e as [r l IH u|r u]; intros lbl n cp n' H; cbn [c_cand_chain fi_cand] in *.
    - cinv H. cinv H. injection H as <- _. cbn [cp_params]. unfold union.
      rewrite (IH _ _ _ _ Hc), (c_rel_params _ _ _ _ Hc0). reflexivity.
    - eapply c_rel_params; eauto.
  Qed.

  Lemma append_if_bytecode_params c x : cp_params (append_if_bytecode c x) = cp_params c.
  Proof. unfold append_if_bytecode. destruct (cp_node c); reflexivity. Qed.

  Lemma c_cand_params e n cp n' : c_cand fuel rec_expr e n = COk cp n' -> cp_params cp = fi_cand rec_fi src_fi e.
  Proof.
    unfold c_cand. intros H. cinv H. cinv H. injection H as <- _.
    rewrite append_if_bytecode_params. eapply c_cand_chain_params; eauto.
  Qed.

  Lemma c_cor_chain_params : forall e lbl n cp n',
    c_cor_chain fuel rec_expr e lbl n = COk cp n' -> cp_params cp = fi_cor rec_fi src_fi e.
  Proof.
    induction e as [r l IH u|r u]; intros lbl n cp n' H; cbn [c_cor_chain fi_cor] in *.
    - cinv H. cinv H. injection H as <- _. cbn [cp_params]. unfold union.
      rewrite (IH _ _ _ _ Hc), (c_cand_params _ _ _ _ Hc0). reflexivity.
    - eapply c_cand_params; eauto.
  Qed.

  Lemma c_cor_params e n cp n' : c_cor fuel rec_expr e n = COk cp n' -> cp_params cp = fi_cor rec_fi src_fi e.
  Proof.
    unfold c_cor. intros H. cinv H. cinv H. injection H as <- _.
    rewrite append_if_bytecode_params. eapply c_cor_chain_params; eauto.
  Qed.

  Lemma c_pattern_params p n r n' : c_pattern fuel rec_expr p n = COk r n' -> snd r = fi_pattern rec_fi src_fi p.
  Proof.
    destruct p; cbn [c_pattern fi_pattern]; intros H.
    - cinv H. injection H as <- _. cbn [snd]. eapply c_cor_params; eauto.
    - destruct (is_type_name (utf8_encode name)); [|discriminate H]. injection H as <- _. reflexivity.
    - injection H as <- _. reflexivity.
  Qed.

  Lemma c_expr_body_params e n cp n' :
    c_expr_body fuel rec_expr e n = COk cp n' -> cp_params cp = fi_expr_body rec_fi src_fi e.
  Proof.
    destruct e; cbn [c_expr_body fi_expr_body]; intros H.
    - cinv H. cinv H. cinv H.
      rewrite <- (c_cor_params _ _ _ _ Hc), <- (c_cor_params _ _ _ _ Hc0), <- (Hrec _ _ _ _ Hc1).
      destruct (cp_node a) as [cb|v].
      + cinv H. cinv H. injection H as <- _. reflexivity.
      + destruct (is_err v); [|destruct (is_truthy v)]; injection H as <- _; reflexivity.
    - cinv H. cinv H. cinv H. cinv H. injection H as <- _. cbn [cp_params]. unfold union.
      rewrite (Hrec _ _ _ _ Hc). f_equal.
      clear Hc Hc1 Hc2. revert a0 n0 n1 Hc0. induction cases as [|[r0 p arm] rest IH]; intros a0 n0 n1 Hc0.
      + injection Hc0 as <- _. reflexivity.
      + cinv Hc0. cinv Hc0. cinv Hc0. injection Hc0 as <- _. cbn [snd fi_cases]. unfold union.
        rewrite (c_pattern_params _ _ _ _ Hc), (Hrec _ _ _ _ Hc1), (IH _ _ _ Hc2). reflexivity.
    - eapply c_cor_params; eauto.
  Qed.
End Level.

(** The parameters of a compiled expression are exactly its free identifiers,
    in every syntactic position, by induction on the nesting depth. *)
Theorem params_are_free_idents : forall fuel e n cp n',
  c_expr fuel e n = COk cp n' -> cp_params cp = free_idents fuel e.
Proof.
  induction fuel as [|f IH]; intros e n cp n' H; [discriminate H|].
  cbn [c_expr free_idents] in *.
  eapply (c_expr_body_params f (c_expr f) (free_idents f)); eauto.
  intros s e0 t Hp. rewrite Hp. reflexivity.
Qed.

Lemma insert_sorted_in x y l : In y (insert_sorted x l) <-> y = x \/ In y l.
Proof.
  induction l as [|z l IH]; cbn; [intuition congruence|].
  destruct (bytes_cmp x z) eqn:C; cbn.
  - apply bytes_cmp_eq in C. subst. intuition congruence.
  - intuition congruence.
  - rewrite IH. intuition congruence.
Qed.

Lemma sort_params_in y l : In y (sort_params l) <-> In y l.
Proof.
  unfold sort_params. induction l as [|x l IH]; cbn; [tauto|]. rewrite insert_sorted_in, IH. intuition congruence.
Qed.

(** Program::params(): a name is reported iff it is a free identifier of the source. *)
Theorem program_params_cover_and_sound : forall fuel src p n,
  compile_source fuel src = COk p n ->
  forall x, In x (pr_params p) <-> In x (free_idents fuel (pr_ast p)).
Proof.
  intros fuel src p n H x. unfold compile_source in H.
  destruct (parse_program fuel src) as [e t| |]; try discriminate H.
  destruct (c_expr fuel e O) as [cp n1| | | |] eqn:Hc; try discriminate H.
  destruct (resolve (into_bytecode (cp_node cp))); try discriminate H.
  injection H as <- _. cbn [pr_params pr_ast]. rewrite sort_params_in, (params_are_free_idents _ _ _ _ _ Hc). tauto.
Qed.
