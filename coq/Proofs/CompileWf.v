(* Proofs/CompileWf.v — C10: every program the compiler emits is well-formed.
   For every expression, fuel and label counter: if the code generator returns, the code it returns
   is the flattening of a height-disciplined tree over fresh labels (Proofs/TreeAlg.v), hence resolves
   and passes the validator (Proofs/Asm.v).  The validator is taken with [wf1], which accepts every
   nested block: the blocks pushed for call arguments, macro bodies and f-string segments are not
   re-checked through the outer certificate, each of them is itself the resolved result of a call of the
   code generator, to which the same theorem applies. *)
From Coq Require Import ZArith List Bool Lia Arith.
From Coq Require Strings.String.
Import Coq.Strings.String.StringSyntax.
From Rscel Require Import Base.Prims Base.F64 Base.Text Model.Value Model.Ops Model.Funcs Model.Interp
     Model.Lexer Model.Ast Model.Parser Model.Compile Spec.WfCode Proofs.Asm Proofs.TreeAlg Proofs.CompileMonad.
Import ListNotations.
Local Open Scope nat_scope.

(** a closed tree resolves to validated code: its own labels are distinct, so the heights listed for
    them are an assignment *)
Lemma eff_closed_resolves n n' t : effI [] n n' t (Some 0) (Some 1) ->
  exists code H, resolve (flat t) = Some code /\ validate wf1 code H = true.
Proof.
  intros (_ & [N F (own & D & C)] & [Nd _]).
  apply (resolve_valid_tck wf1 t (fun l => find_label l own)); [|exact N|exact F|exact Nd].
  apply (C 0). intros l o Hin. rewrite Nat.add_0_r. apply find_label_in; [rewrite D; exact Nd|exact Hin].
Qed.

Definition good (n n' : nat) (nv : nodeval) : Prop :=
  exists t, flat t = into_bytecode nv /\ effI [] n n' t (Some 0) (Some 1).

Lemma good_le n n' nv : good n n' nv -> n <= n'.
Proof. intros (t & _ & L & _). exact L. Qed.

Lemma good_weaken n n' nv m m' : good n n' nv -> m <= n -> n' <= m' -> good m m' nv.
Proof. intros (t & F & E) H1 H2. exists t. split; [exact F|]. eapply effI_weaken; eauto. Qed.

Lemma good_const n v : good n n (NConst v).
Proof. exists (TI (IPush v)). split; [reflexivity|]. exact (effI_instr [] n (IPush v) 0 eq_refl). Qed.

Lemma good_resolves n n' nv : good n n' nv ->
  exists code H, resolve (into_bytecode nv) = Some code /\ validate wf1 code H = true.
Proof. intros (t & F & E). rewrite <- F. eapply eff_closed_resolves; eauto. Qed.

Lemma good_at n n' t ext j : effI [] n n' t (Some 0) (Some 1) -> effI ext n n' t (Some j) (Some (S j)).
Proof. intros E. exact (effI_sub _ _ _ _ _ E ext j). Qed.

Lemma effI_op ext n i j a b : is_jump i = false -> pops i = a -> pushes i = b ->
  effI ext n n (TI i) (Some (j + a)) (Some (j + b)).
Proof. intros Hj <- <-. rewrite !(Nat.add_comm j). apply effI_instr, Hj. Qed.

Lemma good_compile2 op f cl cr n n1 n2 :
  is_jump op = false -> pops op = 2 -> pushes op = 1 ->
  good n n1 (cp_node cl) -> good n1 n2 (cp_node cr) ->
  good n n2 (cp_node (compile2 op f cl cr)).
Proof.
  intros Hj Hp Hq Ga Gb. pose proof (good_le _ _ _ Ga). pose proof (good_le _ _ _ Gb).
  destruct Ga as (ta & Fa & Ea), Gb as (tb & Fb & Eb). unfold compile2.
  assert (Bc : good n n2 (NBytecode (into_bytecode (cp_node cl) ++ into_bytecode (cp_node cr) ++ [PBc op]))).
  { exists (TSeq ta (TSeq tb (TI op))). split; [cbn [flat into_bytecode]; rewrite Fa, Fb; reflexivity|].
    eapply effI_seq; [exact Ea|]. eapply effI_seq; [apply good_at, Eb|]. apply (effI_op [] n2 op 0 2 1); assumption. }
  destruct (cp_node cl) as [ca|x]; [exact Bc|]. destruct (cp_node cr) as [cb|y]; [exact Bc|].
  cbn [cp_node]. eapply good_weaken; [apply (good_const n)|lia|lia].
Qed.

(** a list of results with consecutive label ranges; two neighbours may have been compiled in the
    other order (a map entry: the key is compiled first, the value's code comes first) *)
Inductive goods : nat -> list cprog -> nat -> Prop :=
| g_nil n : goods n [] n
| g_cons n m n' c r : good n m (cp_node c) -> goods m r n' -> goods n (c :: r) n'
| g_swap n m1 m2 n' c1 c2 r : good n m1 (cp_node c2) -> good m1 m2 (cp_node c1) ->
    goods m2 r n' -> goods n (c1 :: c2 :: r) n'.

Lemma goods_le : forall n cs n', goods n cs n' -> n <= n'.
Proof.
  induction 1 as [n|n m n' c r G _ IH|n m1 m2 n' c1 c2 r G2 G1 _ IH]; [lia|apply good_le in G; lia|].
  apply good_le in G1, G2. lia.
Qed.

Lemma goods_tree : forall n cs n', goods n cs n' -> forall j,
  exists t, flat t = flat_map (fun c => into_bytecode (cp_node c)) cs /\ effI [] n n' t (Some j) (Some (j + length cs)).
Proof.
  induction 1 as [n|n m n' c r (tc & Fc & Ec) Hr IH|n m1 m2 n' c1 c2 r (t2 & F2 & E2) (t1 & F1 & E1) Hr IH]; intros j;
    cbn [flat_map length].
  - exists TNil. split; [reflexivity|]. rewrite Nat.add_0_r. apply effI_nil.
  - destruct (IH (S j)) as (tr & Fr & Er).
    exists (TSeq tc tr). split; [cbn [flat]; rewrite Fc, Fr; reflexivity|].
    eapply effI_seq; [apply good_at, Ec|]. rewrite <- Nat.add_succ_comm. exact Er.
  - destruct (IH (S (S j))) as (tr & Fr & Er). pose proof (proj1 E1). pose proof (proj1 E2).
    exists (TSeq (TSeq t1 t2) tr). split; [cbn [flat]; rewrite F1, F2, Fr, <- app_assoc; reflexivity|].
    eapply effI_seq; [|rewrite <- !Nat.add_succ_comm; exact Er].
    apply (effI_seq2 [] n m2 m1 m2 n m1 t1 t2 _ (Some (S j))); try lia; apply good_at; assumption.
Qed.

Lemma all_const_none_or cs : (exists vs, all_const cs = Some vs) \/ all_const cs = None.
Proof. destruct (all_const cs); eauto. Qed.

Lemma good_from_children cs op f n n' :
  is_jump op = false -> pops op = length cs -> pushes op = 1 -> goods n cs n' ->
  good n n' (cp_node (from_children cs op f)).
Proof.
  intros Hj Hp Hq Hg. pose proof (goods_le _ _ _ Hg) as Hle. unfold from_children.
  destruct (all_const cs) as [vs|]; cbn [cp_node].
  - eapply good_weaken; [apply (good_const n)|lia|lia].
  - destruct (goods_tree n cs n' Hg 0) as (t & Ft & Et).
    exists (TSeq t (TI op)). split; [cbn [flat into_bytecode]; rewrite Ft; reflexivity|].
    eapply effI_seq; [exact Et|]. apply (effI_op [] n' op 0 (length cs) 1); assumption.
Qed.

Section Gen.
  Variable fuel : nat.
  Variable rec_expr : expr -> C cprog.
  Hypothesis Hrec : forall e n cp n', rec_expr e n = COk cp n' -> good n n' (cp_node cp).

  Lemma c_list_good : forall es n cs n', c_list rec_expr es n = COk cs n' -> goods n cs n' /\ length cs = length es.
  Proof.
    induction es as [|e r IH]; intros n cs n' H; cbn [c_list] in H.
    - injection H as <- <-. split; [constructor|reflexivity].
    - cinv H as x n1 Hx. cinv H as xs n2 Hxs.
      injection H as <- <-. destruct (IH _ _ _ Hxs) as [G2 Len].
      split; [|cbn; congruence]. eapply g_cons; eauto.
  Qed.

  Lemma seg_tree n ta j v f1 :
    effI [] n n ta (Some 0) (Some j) ->
    effI [] n n (TSeq ta (TSeq (TI (IPush v)) (TSeq (TI (IPush f1)) (TI (ICall 1))))) (Some 0) (Some (S j)).
  Proof.
    intros E. eapply effI_seq; [exact E|].
    eapply effI_seq; [apply (effI_instr [] n (IPush v) j eq_refl)|].
    eapply effI_seq; [apply (effI_instr [] n (IPush f1) (S j) eq_refl)|].
    exact (effI_instr [] n (ICall 1) j eq_refl).
  Qed.

  Lemma c_lit_good l n cp n' : c_lit fuel rec_expr l n = COk cp n' -> good n n' (cp_node cp).
  Proof.
    destruct l; cbn [c_lit]; intros H;
      try (injection H as <- <-; apply good_const).
    match type of H with ?g segs [] [] O n = _ =>
      assert (G : forall segs acc ps j n cp n' ta, g segs acc ps j n = COk cp n' ->
                    flat ta = acc -> effI [] n n ta (Some 0) (Some j) -> n' = n /\ good n n (cp_node cp)) end.
    { clear H. induction segs0 as [|sg r IH]; intros acc ps j n0 cp0 n0' ta H Fa Ea.
      - injection H as <- <-. split; [reflexivity|]. cbn [cp_node].
        exists (TSeq ta (TI (IFmt (Z.of_nat j)))). split; [cbn [flat into_bytecode]; rewrite Fa; reflexivity|].
        eapply effI_seq; [exact Ea|]. apply (effI_op [] n0 _ 0 j 1); [reflexivity|cbn; apply Nat2Z.id|reflexivity].
      - destruct sg as [s|s].
        + eapply (IH _ _ _ _ _ _ _ H); [|apply seg_tree; exact Ea]. cbn [flat]. rewrite Fa. reflexivity.
        + destruct (p_expr fuel (tz_init s)) as [e t| |]; try discriminate H.
          destruct (rec_expr e O) as [cpe ne| | | |]; try discriminate H.
          destruct (resolve (into_bytecode (cp_node cpe))) as [bc|]; [|discriminate H].
          eapply (IH _ _ _ _ _ _ _ H); [|apply seg_tree; exact Ea]. cbn [flat]. rewrite Fa. reflexivity. }
    destruct (G _ _ _ _ _ _ _ TNil H eq_refl (effI_nil [] n (Some 0))) as [-> Gd]. exact Gd.
  Qed.

  Lemma c_primary_good p n cp n' : c_primary fuel rec_expr p n = COk cp n' -> good n n' (cp_node cp).
  Proof.
    destruct p as [r name|r e|r es|r inits|r l]; cbn [c_primary]; intros H.
    - injection H as <- <-. cbn [cp_node].
      exists (TI (IPush (VIdent (utf8_encode name)))). split; [reflexivity|]. exact (effI_instr [] n (IPush (VIdent (utf8_encode name))) 0 eq_refl).
    - eapply Hrec; eauto.
    - apply cbind_ret_ok in H. destruct H as (cs & Hcs & ->).
      destruct (c_list_good _ _ _ _ Hcs) as [Gs Len].
      apply good_from_children; [reflexivity| |reflexivity|exact Gs].
      cbn [pops]. unfold zlen. rewrite Nat2Z.id. congruence.
    - apply cbind_ret_ok in H. destruct H as (cs & Hcs & ->).
      assert (G : goods n cs n' /\ length cs = 2 * length inits).
      { revert n cs Hcs. induction inits as [|[ri k v] l IH]; intros n cs H0.
        - injection H0 as <- <-. split; [constructor|reflexivity].
        - cinv H0 as ck m1 Hk. cinv H0 as cv m2 Hv.
          apply cbind_ret_ok in H0. destruct H0 as (rest & Hr & ->).
          destruct (IH _ _ Hr) as [G3 Len].
          split; [|cbn [length]; rewrite Len; cbn [length]; lia].
          eapply g_swap; eauto. }
      destruct G as [Gs Len].
      apply good_from_children; [reflexivity| |reflexivity|exact Gs].
      cbn [pops]. unfold zlen. rewrite Nat2Z.id. lia.
    - eapply c_lit_good; eauto.
  Qed.

  Lemma good_then n0 n nv (tl : ptree) :
    good n0 n nv -> effI [] n n tl (Some 1) (Some 1) ->
    good n0 n (NBytecode (into_bytecode nv ++ flat tl)).
  Proof.
    intros (t & Ft & Et) El.
    exists (TSeq t tl). split; [cbn [flat into_bytecode]; rewrite Ft; reflexivity|].
    eapply effI_seq; [exact Et|exact El].
  Qed.

  Lemma push_op_tree n v op : is_jump op = false -> pops op = 2 -> pushes op = 1 ->
    effI [] n n (TSeq (TI (IPush v)) (TI op)) (Some 1) (Some 1).
  Proof.
    intros Hj Hp Hq. eapply effI_seq; [apply (effI_instr [] n (IPush v) 1 eq_refl)|].
    apply (effI_op [] n op 0 2 1); assumption.
  Qed.

  (** the node of a call before its compile-time evaluation: the argument blocks (each the resolved
      result of compiling an argument), the callee, the call *)
  Lemma call_node_good cur rargs n0 n pp n1 : good n0 n (cp_node cur) ->
    (fix go (l : list expr) : C (pcode * list bytes) :=
       match l with
       | [] => cret ([], [])
       | a :: r =>
           let+ ca := rec_expr a in
           let+ bc := resolve_or_panic (into_bytecode (cp_node ca)) in
           let+ rest := go r in
           cret (PBc (IPush (VCode bc)) :: fst rest, union (cp_params ca) (snd rest))
       end) rargs n = COk pp n1 ->
    n <= n1 /\ good n0 n (NBytecode (fst pp ++ into_bytecode (cp_node cur) ++ [PBc (ICall (zlen rargs))])).
  Proof.
    intros (tc & Fc & Ec) Hp.
    assert (G : n <= n1 /\ exists t, flat t = fst pp /\ forall j x, effI [] x x t (Some j) (Some (j + length rargs))).
    { clear Ec. revert n pp Hp. induction rargs as [|a l IH]; intros n pp H0.
      - injection H0 as <- <-. split; [lia|]. exists TNil. split; [reflexivity|]. intros j x. rewrite Nat.add_0_r. apply effI_nil.
      - cinv H0 as ca m1 Ha. cinv H0 as bc m2 Hb.
        apply cbind_ret_ok in H0. destruct H0 as (rest & Hr & ->).
        pose proof (good_le _ _ _ (Hrec _ _ _ _ Ha)) as L1. apply resolve_or_panic_ok in Hb. destruct Hb as [_ ->].
        destruct (IH _ _ Hr) as (L3 & tr & Fr & Er). split; [lia|].
        exists (TSeq (TI (IPush (VCode bc))) tr). split; [cbn [flat fst]; rewrite Fr; reflexivity|].
        intros j x. eapply effI_seq; [apply (effI_instr [] x (IPush (VCode bc)) j eq_refl)|].
        cbn [length]. rewrite <- Nat.add_succ_comm. apply Er. }
    destruct G as (L1 & tp & Fp & Ep). split; [exact L1|].
    exists (TSeq tp (TSeq tc (TI (ICall (zlen rargs))))). split; [cbn [flat into_bytecode]; rewrite Fp, Fc; reflexivity|].
    eapply effI_seq; [apply (Ep 0 n0)|]. eapply effI_seq; [apply good_at, Ec|].
    apply (effI_op [] n _ 0 (S (length rargs)) 1); [reflexivity| |reflexivity]. cbn [pops]. unfold zlen. rewrite Nat2Z.id. reflexivity.
  Qed.

  Lemma c_mprime_good cur m n0 n cp n' : n0 <= n -> good n0 n (cp_node cur) ->
    c_mprime fuel rec_expr cur m n = COk cp n' -> n <= n' /\ good n0 n' (cp_node cp).
  Proof.
    intros Hle Gc H. destruct m as [r1 r2 name|r rargs|r e]; cbn [c_mprime] in H.
    - assert (Bc : forall c, into_bytecode (cp_node cur) = c ->
                   good n0 n (NBytecode (c ++ [PBc (IPush (VIdent (utf8_encode name))); PBc IAccess]))).
      { intros c <-. apply (good_then n0 n (cp_node cur) (TSeq (TI (IPush (VIdent (utf8_encode name)))) (TI IAccess)) Gc).
        apply push_op_tree; reflexivity. }
      destruct (cp_node cur) as [c|o] eqn:En.
      + injection H as <- <-. split; [lia|]. exact (Bc c eq_refl).
      + assert (Hb : good n0 n (NBytecode [PBc (IPush o); PBc (IPush (VIdent (utf8_encode name))); PBc IAccess])) by exact (Bc _ eq_refl).
        destruct o; try (injection H as <- <-; split; [lia|exact Hb]).
        destruct (access (VMap m) (utf8_encode name));
          injection H as <- <-; split; try lia; try exact Hb;
          cbn [cp_node]; eapply good_weaken; try apply (good_const n0); lia.
    - cinv H as [pushes ps] n1 Hp.
      destruct (call_node_good cur rargs n0 n _ _ Gc Hp) as [L1 Gn]. cbn [fst snd] in *.
      pose proof (check_for_const_counter _ _ _ _ _ H) as ->.
      destruct (check_for_const_ok _ _ _ _ _ H) as (bc & Hres & _ & Hcp). split; [exact L1|].
      cbn [cp_node into_bytecode] in Hres.
      destruct (good_resolves _ _ _ Gn) as (code & Hc & Hres' & Hval). cbn [into_bytecode] in Hres'. rewrite Hres in Hres'. injection Hres' as <-.
      destruct Hcp as [-> | (v & lg & -> & _)].
      + exists (TChunk bc Hc). split; [reflexivity|]. eapply effI_weaken; [apply (effI_chunk [] n0 bc Hc 0 Hval)|lia|lia].
      + eapply good_weaken; [apply (good_const n0)|lia|lia].
    - apply cbind_ret_ok in H. destruct H as (ci & Hi & ->).
      pose proof (Hrec _ _ _ _ Hi) as G1. split; [exact (good_le _ _ _ G1)|]. apply good_compile2 with (n1 := n); auto.
  Qed.

  Lemma c_member_good m n cp n' : c_member fuel rec_expr m n = COk cp n' -> good n n' (cp_node cp).
  Proof.
    destruct m as [r p ms]. cbn [c_member]. intros H. cinv H as cp0 n1 Hp.
    pose proof (c_primary_good _ _ _ _ Hp) as G0. pose proof (good_le _ _ _ G0) as L0. clear Hp.
    revert cp0 n1 G0 L0 H. induction ms as [|x l IH]; intros cur m0 Gc Hle H.
    - injection H as <- <-. exact Gc.
    - cinv H as c' m2 Hx.
      destruct (c_mprime_good cur x n m0 c' m2 Hle Gc Hx) as [L1 G1].
      exact (IH c' m2 G1 ltac:(lia) H).
  Qed.

  Lemma repeat_tree n op k : is_jump op = false -> pops op = 1 -> pushes op = 1 ->
    exists t, flat t = repeat (PBc op) k /\ effI [] n n t (Some 1) (Some 1).
  Proof.
    intros Hj Hp Hq. induction k as [|k (t & Ft & Et)].
    - exists TNil. split; [reflexivity|apply effI_nil].
    - exists (TSeq (TI op) t). split; [cbn [flat repeat]; rewrite Ft; reflexivity|].
      eapply effI_seq; [apply (effI_op [] n op 0 1 1); assumption|exact Et].
  Qed.

  Lemma c_unary_good u n cp n' : c_unary fuel rec_expr u n = COk cp n' -> good n n' (cp_node cp).
  Proof.
    destruct u as [r m|r nots m|r negs m]; cbn [c_unary]; intros H.
    - eapply c_member_good; eauto.
    - apply cbind_ret_ok in H. destruct H as (cm & Hm & ->).
      pose proof (c_member_good _ _ _ _ Hm) as G. unfold append_result. cbn [cp_node into_bytecode].
      destruct (repeat_tree n' INot (oplist_len nots) eq_refl eq_refl eq_refl) as (t & Ft & Et). rewrite <- Ft.
      apply good_then; assumption.
    - apply cbind_ret_ok in H. destruct H as (cm & Hm & ->).
      pose proof (c_member_good _ _ _ _ Hm) as G. unfold append_result. cbn [cp_node into_bytecode].
      destruct (repeat_tree n' INeg (oplist_len negs) eq_refl eq_refl eq_refl) as (t & Ft & Et). rewrite <- Ft.
      apply good_then; assumption.
  Qed.

  Lemma c_mult_good : forall e n cp n', c_mult fuel rec_expr e n = COk cp n' -> good n n' (cp_node cp).
  Proof.
    induction e as [r l IH op rr|r u]; intros n cp n' H; cbn [c_mult] in H.
    - apply cbind2_ok in H. destruct H as (cl & n1 & cr & Hl & Hr & ->).
      pose proof (IH _ _ _ Hl) as G1. pose proof (c_unary_good _ _ _ _ Hr) as G2.
      destruct op; apply good_compile2 with (n1 := n1); auto.
    - eapply c_unary_good; eauto.
  Qed.

  Lemma c_addn_good : forall e n cp n', c_addn fuel rec_expr e n = COk cp n' -> good n n' (cp_node cp).
  Proof.
    induction e as [r l IH op rr|r u]; intros n cp n' H; cbn [c_addn] in H.
    - apply cbind2_ok in H. destruct H as (cl & n1 & cr & Hl & Hr & ->).
      pose proof (IH _ _ _ Hl) as G1. pose proof (c_mult_good _ _ _ _ Hr) as G2.
      destruct op; apply good_compile2 with (n1 := n1); auto.
    - eapply c_mult_good; eauto.
  Qed.

  Lemma c_rel_good : forall e n cp n', c_rel fuel rec_expr e n = COk cp n' -> good n n' (cp_node cp).
  Proof.
    induction e as [r l IH op rr|r u]; intros n cp n' H; cbn [c_rel] in H.
    - apply cbind2_ok in H. destruct H as (cl & n1 & cr & Hl & Hr & ->).
      pose proof (IH _ _ _ Hl) as G1. pose proof (c_addn_good _ _ _ _ Hr) as G2.
      destruct op; apply good_compile2 with (n1 := n1); auto.
    - eapply c_addn_good; eauto.
  Qed.

  (** && and || chains: every link jumps to the one label the chain shares, expecting one value there *)
  Definition ext1 (L : nat) : list (nat * nat) := [(L, 1)].

  Lemma ext1_in L : In (L, 1) (ext1 L). Proof. left. reflexivity. Qed.

  Definition chain_good (L n n' : nat) (nv : nodeval) : Prop :=
    exists t, flat t = into_bytecode nv /\ effI (ext1 L) n n' t (Some 0) (Some 1).

  Lemma chain_step L n n1 n2 tl tr w op :
    is_jump op = false -> pops op = 2 -> pushes op = 1 ->
    effI (ext1 L) n n1 tl (Some 0) (Some 1) -> effI [] n1 n2 tr (Some 0) (Some 1) ->
    effI (ext1 L) n n2 (TSeq tl (TSeq (TI ITest) (TSeq (TI IDup) (TSeq (TJC w L) (TSeq tr (TI op)))))) (Some 0) (Some 1).
  Proof.
    intros Hj Hp Hq El Er.
    eapply effI_seq; [exact El|].
    eapply effI_seq; [apply (effI_instr _ n1 ITest 0 eq_refl)|].
    eapply effI_seq; [apply (effI_instr _ n1 IDup 0 eq_refl)|].
    eapply effI_seq; [apply (effI_jc _ n1 w L 1 (ext1_in L))|].
    eapply effI_seq; [apply good_at, Er|].
    apply (effI_op _ n2 op 0 2 1); assumption.
  Qed.

  Lemma good_to_chain L n n' nv : good n n' nv -> chain_good L n n' nv.
  Proof. intros (t & F & E). exists t. split; [exact F|apply good_at, E]. Qed.

  Lemma chain_close L n' c :
    chain_good L (S L) n' (cp_node c) -> good L n' (cp_node (append_if_bytecode c [PLabel L])).
  Proof.
    intros (t & F & E). pose proof (proj1 E) as Hle. unfold append_if_bytecode. destruct (cp_node c) as [b|v] eqn:En; cbn [cp_node].
    - exists (TSeq t (TSeq (TL L) TNil)). split; [cbn [flat into_bytecode] in *; rewrite F; reflexivity|].
      eapply effI_define with (p1 := S L) (p2 := n') (q1 := n') (q2 := n') (o := 1);
        [exact E|left; reflexivity|apply effI_nil|lia|lia|lia|unfold in_range; lia..].
    - rewrite En. eapply good_weaken; [apply (good_const L)|lia|lia].
  Qed.

  Lemma c_cand_chain_good : forall e L n cp n',
    c_cand_chain fuel rec_expr e L n = COk cp n' -> chain_good L n n' (cp_node cp).
  Proof.
    induction e as [r l IH rr|r u]; intros L n cp n' H; cbn [c_cand_chain] in H.
    - apply cbind2_ok in H. destruct H as (cl & n1 & cr & Hl & Hr & ->).
      destruct (IH _ _ _ _ Hl) as (tl & Fl & El).
      destruct (c_rel_good _ _ _ _ Hr) as (tr & Fr & Er). cbn [cp_node].
      exists (TSeq tl (TSeq (TI ITest) (TSeq (TI IDup) (TSeq (TJC false L) (TSeq tr (TI IAnd)))))).
      split; [cbn [flat into_bytecode]; rewrite Fl, Fr; reflexivity|]. apply chain_step with (n1 := n1); auto.
    - apply good_to_chain, (c_rel_good _ _ _ _ H).
  Qed.

  Lemma c_cand_good e n cp n' : c_cand fuel rec_expr e n = COk cp n' -> good n n' (cp_node cp).
  Proof.
    unfold c_cand. intros H. rewrite cbind_new_label in H.
    apply cbind_ret_ok in H. destruct H as (c & Hc & ->).
    apply chain_close, (c_cand_chain_good _ _ _ _ _ Hc).
  Qed.

  Lemma c_cor_chain_good : forall e L n cp n',
    c_cor_chain fuel rec_expr e L n = COk cp n' -> chain_good L n n' (cp_node cp).
  Proof.
    induction e as [r l IH rr|r u]; intros L n cp n' H; cbn [c_cor_chain] in H.
    - apply cbind2_ok in H. destruct H as (cl & n1 & cr & Hl & Hr & ->).
      destruct (IH _ _ _ _ Hl) as (tl & Fl & El).
      destruct (c_cand_good _ _ _ _ Hr) as (tr & Fr & Er). cbn [cp_node].
      exists (TSeq tl (TSeq (TI ITest) (TSeq (TI IDup) (TSeq (TJC true L) (TSeq tr (TI IOr)))))).
      split; [cbn [flat into_bytecode]; rewrite Fl, Fr; reflexivity|]. apply chain_step with (n1 := n1); auto.
    - apply good_to_chain, (c_cand_good _ _ _ _ H).
  Qed.

  Lemma c_cor_good e n cp n' : c_cor fuel rec_expr e n = COk cp n' -> good n n' (cp_node cp).
  Proof.
    unfold c_cor. intros H. rewrite cbind_new_label in H.
    apply cbind_ret_ok in H. destruct H as (c & Hc & ->).
    apply chain_close, (c_cor_chain_good _ _ _ _ _ Hc).
  Qed.

  (** ?: — the labels are taken after the three operands: [n3] after the true branch, [S n3] at the end *)
  Lemma ternary_tree n n1 n2 n3 tb tt tf :
    effI [] n n1 tb (Some 0) (Some 1) -> effI [] n1 n2 tt (Some 0) (Some 1) -> effI [] n2 n3 tf (Some 0) (Some 1) ->
    effI [] n (S (S n3))
      (TSeq (TSeq (TSeq tb (TSeq (TI ITest) (TSeq (TI IDup) (TSeq (TJC false n3) (TSeq (TI IPop) (TSeq tt (TJ (S n3))))))))
                  (TSeq (TL n3) (TSeq (TI IDup) (TSeq (TI INot) (TSeq (TJC false (S n3)) (TSeq (TI IPop) tf))))))
            (TSeq (TL (S n3)) TNil))
      (Some 0) (Some 1).
  Proof.
    intros Eb Et Ef. pose proof (proj1 Eb). pose proof (proj1 Et). pose proof (proj1 Ef).
    set (AT := n3). set (EN := S n3).
    assert (Pre : effI [(AT, 1); (EN, 1)] n n2
                    (TSeq tb (TSeq (TI ITest) (TSeq (TI IDup) (TSeq (TJC false AT) (TSeq (TI IPop) (TSeq tt (TJ EN))))))) (Some 0) None).
    { eapply effI_seq; [apply good_at, Eb|].
      eapply effI_seq; [apply (effI_instr _ n1 ITest 0 eq_refl)|].
      eapply effI_seq; [apply (effI_instr _ n1 IDup 0 eq_refl)|].
      eapply effI_seq; [apply (effI_jc _ n1 false AT 1); left; reflexivity|].
      eapply effI_seq; [apply (effI_instr _ n1 IPop 0 eq_refl)|].
      eapply effI_seq; [apply good_at, Et|].
      apply (effI_j _ n2 EN 1). right. left. reflexivity. }
    assert (Mid : effI (ext1 EN) n2 n3 (TSeq (TI IDup) (TSeq (TI INot) (TSeq (TJC false EN) (TSeq (TI IPop) tf)))) (Some 1) (Some 1)).
    { eapply effI_seq; [apply (effI_instr _ n2 IDup 0 eq_refl)|].
      eapply effI_seq; [apply (effI_instr _ n2 INot 1 eq_refl)|].
      eapply effI_seq; [apply (effI_jc _ n2 false EN 1 (ext1_in EN))|].
      eapply effI_seq; [apply (effI_instr _ n2 IPop 0 eq_refl)|].
      apply good_at, Ef. }
    eapply effI_define with (p1 := n) (p2 := S n3) (q1 := S (S n3)) (q2 := S (S n3)) (o := 1);
      [|left; reflexivity|apply effI_nil|lia|lia|lia|unfold in_range, EN; lia..].
    eapply effI_define with (p1 := n) (p2 := n2) (q1 := n2) (q2 := n3) (o := 1);
      [exact Pre|right; reflexivity|exact Mid|lia|lia|lia|unfold in_range, AT; lia..].
  Qed.

  Lemma c_pattern_good p n pc ps n' : c_pattern fuel rec_expr p n = COk (pc, ps) n' ->
    exists t, flat t = pc /\ effI [] n n' t (Some 1) (Some 1).
  Proof.
    destruct p as [r1 r2 op o|r1 r2 mt name|r1 r2]; cbn [c_pattern]; intros H.
    - cinv H as co n1 Ho. injection H as <- <- <-.
      destruct (c_cor_good _ _ _ _ Ho) as (t & F & Et).
      exists (TSeq t (TI (cmp_instr op))). split; [cbn [flat]; rewrite F; reflexivity|].
      eapply effI_seq; [apply good_at, Et|]. apply (effI_op [] n1 _ 0 2 1); destruct op; reflexivity.
    - destruct (is_type_name (utf8_encode name)); [|discriminate H].
      injection H as <- <- <-.
      exists (TSeq (TI (IPush (VIdent #"type"))) (TSeq (TI (ICall 1)) (TSeq (TI (IPush (VIdent (utf8_encode name)))) (TI IEq)))).
      split; [reflexivity|].
      eapply effI_seq; [apply (effI_instr [] n (IPush (VIdent #"type")) 1 eq_refl)|].
      eapply effI_seq; [apply (effI_instr [] n (ICall 1) 0 eq_refl)|].
      apply push_op_tree; reflexivity.
    - injection H as <- <- <-.
      exists (TSeq (TI IPop) (TI (IPush (VBool true)))). split; [reflexivity|].
      eapply effI_seq; [apply (effI_instr [] n IPop 0 eq_refl)|apply (effI_instr [] n (IPush (VBool true)) 0 eq_refl)].
  Qed.

  Inductive parts_good : nat -> list (pcode * pcode) -> nat -> Prop :=
  | pg_nil m : parts_good m [] m
  | pg_cons m m1 m2 m' pb eb tp ta r :
      flat tp = pb -> effI [] m m1 tp (Some 1) (Some 1) ->
      eb = PBc IPop :: flat ta -> effI [] m1 m2 ta (Some 0) (Some 1) ->
      parts_good m2 r m' -> parts_good m ((pb, eb) :: r) m'.

  Lemma parts_le m ps m' : parts_good m ps m' -> m <= m'.
  Proof.
    induction 1 as [m|m m1 m2 m' pb eb tp ta r _ Ep _ Ea _ IH]; [lia|].
    pose proof (proj1 Ep). pose proof (proj1 Ea). lia.
  Qed.

  (** the arms of a match, one after the other: each jumps over itself when its pattern fails and to the
      common end label [AM] when it ran.  The labels after the cases are allocated in a second pass, so
      the labels of the whole lie in two intervals: those of the patterns and arms, those after the cases. *)
  Lemma match_body AM : forall m ps m', parts_good m ps m' -> forall q body q',
    m' <= q ->
    (fix go (l : list (pcode * pcode)) : C pcode :=
       match l with
       | [] => cret []
       | (pb, eb) :: r =>
           let+ after_case := new_label in
           let+ rest := go r in
           cret ([PBc IDup] ++ pb ++ [PJmpCond false after_case] ++ eb ++ [PJmp AM; PLabel after_case] ++ rest)
       end) ps q = COk body q' ->
    q <= q' /\ exists t, flat t = body /\ eff (ext1 AM) t (Some 1) (Some 1) /\
      labels_in (fun l => in_range m m' l \/ in_range q q' l) t.
  Proof.
    induction 1 as [m|m m1 m2 m' pb eb tp ta r Fp Ep Feb Ea Hr IH]; intros q body q' Hq H.
    - injection H as <- <-. split; [lia|]. exists TNil. split; [reflexivity|].
      split; [apply eff_nil|apply labels_none; reflexivity].
    - rewrite cbind_new_label in H. apply cbind_ret_ok in H. destruct H as (rest & Hrest & ->).
      destruct (IH (S q) _ _ ltac:(lia) Hrest) as (Lq & tr & Fr & Er & Lr). pose proof (parts_le _ _ _ Hr) as Lm.
      pose proof (proj1 Ep). pose proof (proj1 Ea). split; [lia|].
      assert (Pre : effI ((q, 1) :: ext1 AM) m m2
                      (TSeq (TI IDup) (TSeq tp (TSeq (TJC false q) (TSeq (TI IPop) (TSeq ta (TJ AM)))))) (Some 1) None).
      { eapply effI_seq; [apply (effI_instr _ m IDup 0 eq_refl)|].
        eapply effI_seq; [apply (effI_sub _ _ _ _ _ Ep _ 1)|].
        eapply effI_seq; [apply (effI_jc _ m1 false q 1); left; reflexivity|].
        eapply effI_seq; [apply (effI_instr _ m1 IPop 0 eq_refl)|].
        eapply effI_seq; [apply good_at, Ea|].
        apply (effI_j _ m2 AM 1). right. left. reflexivity. }
      destruct Pre as (_ & Epre & Lpre).
      exists (TSeq (TSeq (TI IDup) (TSeq tp (TSeq (TJC false q) (TSeq (TI IPop) (TSeq ta (TJ AM)))))) (TSeq (TL q) tr)).
      split; [|split].
      + cbn [flat]. rewrite Fp, Fr. subst eb. cbn [app]. repeat (rewrite <- app_assoc; cbn [app]). reflexivity.
      + exact (eff_define _ _ _ _ _ _ _ _ Epre (or_intror eq_refl) Er).
      + apply (labels_weaken (lunion (in_range m m2) (lunion (eq q) (fun l => in_range m2 m' l \/ in_range (S q) q' l)))).
        * apply labels_define; auto; unfold in_range; lia.
        * intros l [A|[<-|[A|A]]]; unfold in_range in *; lia.
  Qed.

  Lemma c_expr_body_good e n cp n' : c_expr_body fuel rec_expr e n = COk cp n' -> good n n' (cp_node cp).
  Proof.
    destruct e as [r c t f|r c cases|r c]; cbn [c_expr_body]; intros H.
    - cinv H as cc n1 Hc. cinv H as ct n2 Ht. cinv H as cf n3 Hf.
      pose proof (c_cor_good _ _ _ _ Hc) as G1. pose proof (c_cor_good _ _ _ _ Ht) as G2. pose proof (Hrec _ _ _ _ Hf) as G3.
      pose proof (good_le _ _ _ G1) as L1. pose proof (good_le _ _ _ G2) as L2. pose proof (good_le _ _ _ G3) as L3.
      destruct (cp_node cc) as [cb|v] eqn:Ec.
      + rewrite !cbind_new_label in H.
        injection H as <- <-. cbn [cp_node].
        destruct G1 as (tb & Fb & Eb), G2 as (tt & Ft & Et), G3 as (tf & Ff & Ef). cbn [into_bytecode] in Fb.
        eexists. split; [|apply (ternary_tree n n1 n2 n3 tb tt tf Eb Et Ef)].
        cbn [flat]. rewrite Fb, Ft, Ff. cbn [app]. repeat (rewrite <- app_assoc; cbn [app]). reflexivity.
      + destruct (is_err v); [|destruct (is_truthy v)]; injection H as <- <-; cbn [cp_node].
        * eapply good_weaken; [apply (good_const n)|lia|lia].
        * eapply good_weaken; [exact G2|lia|lia].
        * eapply good_weaken; [exact G3|lia|lia].
    - cinv H as cc n1 Hc. cinv H as [parts pps] n2 Hp.
      destruct (Hrec _ _ _ _ Hc) as (tcc & Fcc & Ecc). pose proof (proj1 Ecc) as L1.
      assert (Pg : parts_good n1 parts n2).
      { clear -Hp Hrec. revert n1 parts pps Hp.
        induction cases as [|[rc p arm] l IH]; intros m parts pps H0.
        - injection H0 as <- <- <-. constructor.
        - cinv H0 as [pc pp] m1 Hpat. cinv H0 as ca m2 Harm. cinv H0 as [rest prest] m3 Hr. injection H0 as <- <- <-.
          destruct (c_pattern_good _ _ _ _ _ Hpat) as (tp & Fp & Ep). destruct (Hrec _ _ _ _ Harm) as (ta & Fa & Ea).
          eapply pg_cons with (tp := tp) (ta := ta); eauto. rewrite Fa. reflexivity. }
      cbn [fst snd] in *. pose proof (parts_le _ _ _ Pg) as L2.
      rewrite cbind_new_label in H.
      apply cbind_ret_ok in H. destruct H as (body & Hb & ->).
      destruct (match_body n2 _ _ _ Pg _ _ _ (Nat.le_succ_diag_r n2) Hb) as (L3 & tb & Fb & Eb & Lb).
      cbn [cp_node].
      exists (TSeq (TSeq tcc (TSeq tb (TSeq (TI IPop) (TI (IPush VNull))))) (TSeq (TL n2) TNil)). split.
      { cbn [flat into_bytecode]. rewrite Fcc, Fb. cbn [app]. repeat (rewrite <- app_assoc; cbn [app]). reflexivity. }
      destruct (good_at _ _ _ (ext1 n2) 0 Ecc) as (_ & Ecc' & Lcc).
      assert (Tail : effI (ext1 n2) n' n' (TSeq (TI IPop) (TI (IPush VNull))) (Some 1) (Some 1)).
      { eapply effI_seq; [apply (effI_instr _ n' IPop 0 eq_refl)|apply (effI_instr _ n' (IPush VNull) 0 eq_refl)]. }
      destruct Tail as (_ & Etl & Ltl).
      split; [lia|]. split.
      + apply (eff_define [] _ TNil n2 1 _ (Some 1)); [|left; reflexivity|apply eff_nil].
        exact (eff_seq _ _ _ _ _ _ Ecc' (eff_seq _ _ _ _ _ _ Eb Etl)).
      + apply (labels_weaken (lunion (lunion (in_range n n1) (lunion (fun l => in_range n1 n2 l \/ in_range (S n2) n' l) (in_range n' n')))
                                     (lunion (eq n2) (in_range n' n')))).
        * apply labels_define; [| | |apply labels_seq; [|exact Lcc|apply labels_seq; [|exact Lb|exact Ltl]]|apply labels_none; reflexivity];
            unfold lunion, in_range; intros; lia.
        * unfold lunion, in_range. intros l. lia.
    - eapply c_cor_good; eauto.
  Qed.
End Gen.

Theorem c_expr_good : forall fuel e n cp n', c_expr fuel e n = COk cp n' -> good n n' (cp_node cp).
Proof.
  induction fuel as [|f IH]; intros e n cp n' H; cbn [c_expr] in H; [discriminate H|].
  eapply c_expr_body_good; [|exact H]. exact IH.
Qed.

(** The code the compiler emits for any expression resolves (no duplicate or undefined label: the
    Rust code's panic there is unreachable) and passes the validator of Spec/WfCode.v with an explicit
    certificate: every jump lands in the block or at its end, no path pops from an empty stack, paths
    that meet agree on the height, the block ends with exactly one value. *)
Theorem compiled_code_is_valid fuel e n cp n' : c_expr fuel e n = COk cp n' ->
  exists code H, resolve (into_bytecode (cp_node cp)) = Some code /\ validate wf1 code H = true.
Proof. intros Hc. exact (good_resolves _ _ _ (c_expr_good _ _ _ _ _ Hc)). Qed.

Theorem compile_source_is_valid fuel src p k : compile_source fuel src = COk p k ->
  exists H, validate wf1 (pr_code p) H = true.
Proof.
  unfold compile_source. destruct (parse_program fuel src) as [e t| |]; try discriminate.
  destruct (c_expr fuel e 0) as [cp n| | | |] eqn:Hc; try discriminate.
  destruct (compiled_code_is_valid _ _ _ _ _ Hc) as (code & H & Hr & Hv). rewrite Hr.
  intros E. injection E as <- <-. cbn [pr_code]. eauto.
Qed.

(** the compiler's "undefined / duplicate label" panic is unreachable: when parsing and code generation
    return, so does the whole compilation *)
Theorem compile_source_never_label_panic fuel src e t cp n :
  parse_program fuel src = POk e t -> c_expr fuel e 0 = COk cp n ->
  exists p, compile_source fuel src = COk p n /\ pr_ast p = e.
Proof.
  intros Hp Hc. unfold compile_source. rewrite Hp, Hc.
  destruct (compiled_code_is_valid _ _ _ _ _ Hc) as (code & H & Hr & _). rewrite Hr. eexists. split; reflexivity.
Qed.
