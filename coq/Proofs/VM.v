(* Proofs/VM.v — metatheory of the VM model used by C10 (and C01):
   every instruction has a fixed stack effect, a validated height assignment
   is an invariant of execution (no pop from an empty stack on any path,
   joins agree, exactly one value at the end), and jumps of validated code are
   forward and in range, so control only moves forward through a validated block. *)
From Coq Require Import ZArith List Bool Lia Arith.
From Rscel Require Import Base.Prims Base.F64 Base.Text Model.Value Model.Ops Model.Dispatch Model.Funcs
     Model.Interp Spec.WfCode.
Import ListNotations.
Open Scope Z_scope.

Ltac inv H := inversion H; subst; clear H.

Lemma nth_error_mid {A} (p : list A) x q : nth_error (p ++ x :: q) (length p) = Some x.
Proof. rewrite nth_error_app2 by lia. rewrite Nat.sub_diag. reflexivity. Qed.

Lemma mbind_ok {A B} (m : M A) (f : A -> M B) lg b lg' :
  mbind m f lg = (ROk b, lg') -> exists a lg1, m lg = (ROk a, lg1) /\ f a lg1 = (ROk b, lg').
Proof.
  unfold mbind. destruct (m lg) as [[a| | | |] lg1]; try discriminate. intros H. eauto.
Qed.

Definition ok {A} (m : M A) (P : A -> Prop) : Prop :=
  forall lg a lg', m lg = (ROk a, lg') -> P a.

Lemma ok_ret {A} (a : A) (P : A -> Prop) : P a -> ok (mret a) P.
Proof. intros H lg b lg' Hm. inv Hm. exact H. Qed.

Lemma ok_fail {A} e (P : A -> Prop) : ok (mfail e) P.
Proof. intros lg a lg' H. discriminate H. Qed.

Lemma ok_fail_runtime {A} e (P : A -> Prop) : ok (mfail_runtime e) P.
Proof. intros lg a lg' H. discriminate H. Qed.

Lemma ok_bind {A B} (m : M A) (k : A -> M B) (Q : A -> Prop) P :
  ok m Q -> (forall a, Q a -> ok (k a) P) -> ok (mbind m k) P.
Proof.
  intros Hm Hk lg b lg' H. apply mbind_ok in H. destruct H as (a & lg1 & Ha & Hb).
  exact (Hk a (Hm _ _ _ Ha) _ _ _ Hb).
Qed.

Lemma ok_then {A B} (m : M A) (k : A -> M B) P : (forall a, ok (k a) P) -> ok (mbind m k) P.
Proof. intros Hk. apply (ok_bind m k (fun _ => True)); [intros lg a lg' _; exact I|intros a _; apply Hk]. Qed.

Lemma ok_imp {A} (m : M A) (Q P : A -> Prop) : ok m Q -> (forall a, Q a -> P a) -> ok m P.
Proof. intros Hm H lg a lg' Ha. exact (H a (Hm _ _ _ Ha)). Qed.

Lemma ok_if {A} (b : bool) (m1 m2 : M A) P : ok m1 P -> ok m2 P -> ok (if b then m1 else m2) P.
Proof. destruct b; auto. Qed.

Create HintDb ok.
#[export] Hint Resolve ok_ret ok_fail ok_fail_runtime ok_then ok_if : ok.

Section StepFacts.
  Variable rs : runner.
  Variable E : env.
  Variable d : nat.

  Lemma ok_pop st : ok (pop rs E d st) (fun '(_, s) => exists y, st = y :: s).
  Proof.
    destruct st as [|y st0]; [apply ok_fail|].
    destruct y as [[]|]; cbn [pop]; try (apply ok_ret; cbn; eauto).
    apply ok_then. intros v. apply ok_ret. cbn. eauto.
  Qed.

  Lemma ok_pop_val st : ok (pop_val rs E d st) (fun '(_, s) => exists y, st = y :: s).
  Proof.
    eapply ok_bind; [apply ok_pop|]. intros [x s1] [y ->].
    apply ok_then. intros v. apply ok_ret. cbn. eauto.
  Qed.

  Lemma ok_pop_noresolve st : ok (pop_noresolve st) (fun '(x, s) => st = x :: s).
  Proof. destruct st; [apply ok_fail|apply ok_ret; reflexivity]. Qed.

  Lemma ok_pop_n n : forall st, ok (pop_n rs E d n st) (fun '(_, s) => length st = (n + length s)%nat).
  Proof.
    induction n as [|n IH]; intros st; cbn [pop_n]; [apply ok_ret; reflexivity|].
    eapply ok_bind; [apply ok_pop_val|]. intros [v s1] [y ->].
    eapply ok_bind; [apply IH|]. intros [vs s2] Hl. apply ok_ret. cbn in *. lia.
  Qed.

  Definition jump_of (i : instr) (j : option Z) : Prop :=
    match i, j with
    | IJmp dd, Some x => x = dd
    | IJmp _, None => False
    | IJmpCond _ dd, Some x => x = dd
    | IJmpCond _ _, None => True
    | _, None => True
    | _, Some _ => False
    end.

  Definition effect (i : instr) (st : stack) (r : option Z * stack) : Prop :=
    (pops i <= length st)%nat /\ length (snd r) = (length st - pops i + pushes i)%nat /\ jump_of i (fst r).

  Lemma effect_on i (st s : stack) j (st' : stack) :
    jump_of i j -> length st = (pops i + length s)%nat -> length st' = (pushes i + length s)%nat ->
    effect i st (j, st').
  Proof. unfold effect. cbn [fst snd]. intros Hj -> ->. repeat split; [lia|lia|exact Hj]. Qed.

  Lemma ok_bin i f st : pops i = 2%nat -> pushes i = 1%nat -> jump_of i None -> ok (bin rs E d f st) (effect i st).
  Proof.
    intros Hp Hq Hj.
    eapply ok_bind; [apply ok_pop_val|]. intros [v2 s1] [a ->].
    eapply ok_bind; [apply ok_pop_val|]. intros [v1 s2] [b ->].
    apply ok_ret, (effect_on _ _ s2); [exact Hj|rewrite Hp|rewrite Hq]; reflexivity.
  Qed.

  Lemma ok_un i f st : pops i = 1%nat -> pushes i = 1%nat -> jump_of i None -> ok (un rs E d f st) (effect i st).
  Proof.
    intros Hp Hq Hj.
    eapply ok_bind; [apply ok_pop_val|]. intros [v1 s1] [a ->].
    apply ok_ret, (effect_on _ _ s1); [exact Hj|rewrite Hp|rewrite Hq]; reflexivity.
  Qed.

  Lemma step_effect i st : ok (step rs E d i st) (effect i st).
  Proof.
    destruct i; cbn [step];
      try (apply ok_bin; [reflexivity|reflexivity|exact I]);
      try (apply ok_un; [reflexivity|reflexivity|exact I]).
    - apply ok_ret, (effect_on _ _ st); [exact I|reflexivity|reflexivity].
    - eapply ok_bind; [apply ok_pop_val|]. intros [v s1] [y ->].
      apply ok_ret, (effect_on _ _ s1); [exact I|reflexivity|reflexivity].
    - eapply ok_bind; [apply ok_pop_val|]. intros [v s1] [y ->].
      apply ok_if; apply ok_ret, (effect_on _ _ s1); solve [exact I|reflexivity].
    - eapply ok_bind; [apply ok_pop_val|]. intros [v s1] [y ->].
      apply ok_ret, (effect_on _ _ s1); [exact I|reflexivity|reflexivity].
    - apply ok_ret, (effect_on _ _ st); reflexivity.
    - eapply ok_bind; [apply ok_pop_val|]. intros [v s1] [y ->].
      assert (L : forall j, jump_of (IJmpCond w d0) j -> effect (IJmpCond w d0) (y :: s1) (j, s1))
        by (intros j Hj; apply (effect_on _ _ s1); [exact Hj|reflexivity|reflexivity]).
      destruct v; try apply ok_fail; apply ok_ret, L.
      + destruct (Bool.eqb b w); [reflexivity|exact I].
      + destruct w; [exact I|reflexivity].
    - eapply ok_bind; [apply ok_pop_n|]. intros [vs s1] Hl.
      apply ok_ret, (effect_on _ _ s1); [exact I|exact Hl|reflexivity].
    - (* MkDict: induction on the number of entries, over the accumulator and the flag of the loop
         (the second [] of the goal; the first is the empty map the loop folds into) *)
      unfold effect. cbn [pops pushes jump_of].
      generalize false as bad. generalize (@nil (bytes * value)) at 2 as acc. generalize (Z.to_nat n) as k. intros k.
      revert st. induction k as [|k IH]; intros st acc bad; cbn beta.
      + apply ok_if; apply ok_ret; cbn; repeat split; lia.
      + eapply ok_bind; [apply ok_pop_val|]. intros [key s1] [y ->].
        eapply ok_bind; [apply ok_pop_val|]. intros [v s2] [y2 ->].
        eapply ok_imp; [destruct key; apply IH|].
        cbn [length]. intros r (A & B & C). repeat split; [lia|lia|exact C].
    - eapply ok_bind; [apply ok_pop_noresolve|]. intros [idx s1] ->.
      destruct idx as [v|]; [|apply ok_fail].
      (* Access: every way out fails or leaves one entry in place of the two taken *)
      assert (L : forall y s2 x, effect IAccess (SVal v :: y :: s2) (None, x :: s2))
        by (intros; apply (effect_on _ _ s2); [exact I|reflexivity|reflexivity]).
      destruct v; (eapply ok_bind; [apply ok_pop_val|]; intros [o s2] [y ->]); unfold push; auto with ok.
      destruct o; auto 7 with ok. destruct (map_get m s); auto 7 with ok.
    - eapply ok_bind; [apply ok_pop_noresolve|]. intros [callee s1] ->.
      eapply ok_bind; [apply ok_pop_n|]. intros [args s2] Hl.
      (* Call: whatever is called, the result is pushed on what is left under the arguments *)
      assert (L : forall x, effect (ICall n) (callee :: s1) (None, x :: s2))
        by (intros; apply (effect_on _ _ s2); [exact I|cbn; lia|reflexivity]).
      unfold push.
      destruct callee as [v|[|] name this]; [destruct v|..]; auto with ok.
      apply ok_if; [auto with ok|]. apply ok_if; [auto with ok|].
      destruct (env_type E s) as [[]|]; auto 6 with ok.
    - eapply ok_bind; [apply ok_pop_n|]. intros [segs s1] Hl.
      generalize (@nil Z) as acc. induction (rev segs) as [|x l IH]; intros acc.
      + apply ok_ret, (effect_on _ _ s1); [exact I|exact Hl|reflexivity].
      + destruct x; auto with ok.
  Qed.

  Lemma step_height i st lg j st' lg' :
    step rs E d i st lg = (ROk (j, st'), lg') ->
    (pops i <= length st)%nat /\
    length st' = (length st - pops i + pushes i)%nat /\
    jump_of i j.
  Proof. apply (step_effect i st lg (j, st') lg'). Qed.
End StepFacts.

Lemma height_is_spec H pc k : height_is H pc k = true <-> nth_error H pc = Some (Some k).
Proof.
  unfold height_is. destruct (nth_error H pc) as [[k0|]|]; split; intros A; try discriminate.
  - apply Nat.eqb_eq in A. subst. reflexivity.
  - inv A. apply Nat.eqb_refl.
Qed.

Lemma valid_from_nth wfn len H : forall c pc0 j i,
  valid_from wfn len H pc0 c = true -> nth_error c j = Some i ->
  valid_at wfn len H (pc0 + j) i = true.
Proof.
  induction c as [|x c IH]; intros pc0 j i Hv Hn.
  - destruct j; discriminate.
  - cbn in Hv. apply andb_true_iff in Hv. destruct Hv as [Hx Hc].
    destruct j as [|j]; cbn in Hn.
    + inv Hn. rewrite Nat.add_0_r. exact Hx.
    + replace (pc0 + S j)%nat with (S pc0 + j)%nat by lia. eapply IH; eauto.
Qed.

Lemma validate_parts wfn c H :
  validate wfn c H = true ->
  length H = S (length c) /\ height_is H O O = true /\ height_is H (length c) 1 = true /\
  valid_from wfn (length c) H O c = true.
Proof.
  unfold validate. intros Hv.
  apply andb_true_iff in Hv. destruct Hv as [Hv D].
  apply andb_true_iff in Hv. destruct Hv as [Hv C].
  apply andb_true_iff in Hv. destruct Hv as [A B].
  apply Nat.eqb_eq in A. auto.
Qed.

(** The VM's own bounds check: an out-of-range jump is an error, never an
    access outside the program. *)
Theorem jump_target_checked pc dist len :
  match jump_target pc dist len with
  | Some t => (Z.of_nat t = Z.of_nat pc + dist) /\ (t <= len)%nat
  | None => Z.of_nat pc + dist < 0 \/ Z.of_nat len < Z.of_nat pc + dist
  end.
Proof.
  unfold jump_target.
  destruct (Z.ltb_spec (Z.of_nat pc + dist) 0); cbn; [left; assumption|].
  destruct (Z.ltb_spec (Z.of_nat len) (Z.of_nat pc + dist)); cbn; [right; assumption|].
  split; lia.
Qed.

Lemma jump_target_inside pc dd len :
  0 <= dd -> (S pc + Z.to_nat dd <= len)%nat -> jump_target (S pc) dd len = Some (S pc + Z.to_nat dd)%nat.
Proof.
  intros H0 H1. pose proof (jump_target_checked (S pc) dd len) as H.
  destruct (jump_target (S pc) dd len) as [t|]; [f_equal|]; lia.
Qed.

Section Invariant.
  Variable rs : runner.
  Variable E : env.
  Variable d : nat.
  Variable wfn : code -> bool.
  Variable c : code.
  Variable H : list (option nat).
  Hypothesis Hval : validate wfn c H = true.

  Lemma val_len : length H = S (length c).
  Proof. apply (validate_parts _ _ _ Hval). Qed.
  Lemma val_start : nth_error H O = Some (Some O).
  Proof. apply height_is_spec. apply (validate_parts _ _ _ Hval). Qed.
  Lemma val_end : nth_error H (length c) = Some (Some 1%nat).
  Proof. apply height_is_spec. apply (validate_parts _ _ _ Hval). Qed.
  Lemma val_at pc i : nth_error c pc = Some i -> valid_at wfn (length c) H pc i = true.
  Proof.
    intros Hn. destruct (validate_parts _ _ _ Hval) as (_ & _ & _ & Hf).
    exact (valid_from_nth wfn (length c) H c O pc i Hf Hn).
  Qed.

  (** One step of [loop]: where control goes next. *)
  Definition next_pc (pc : nat) (j : option Z) : option nat :=
    match j with None => Some (S pc) | Some dd => jump_target (S pc) dd (length c) end.

  (** The key step lemma: from a state that agrees with [H], a successful
      instruction leads to a state that agrees with [H], strictly later in
      the block, and its jump (if any) is in range. *)
  Lemma step_preserves pc i st lg j st' lg' :
    nth_error c pc = Some i ->
    nth_error H pc = Some (Some (length st)) ->
    step rs E d i st lg = (ROk (j, st'), lg') ->
    exists pc', next_pc pc j = Some pc' /\ (pc < pc' <= length c)%nat /\
                nth_error H pc' = Some (Some (length st')).
  Proof.
    intros Hn Hh Hs.
    pose proof (val_at pc i Hn) as Hv.
    apply step_height in Hs. destruct Hs as (Hp & Hl & Hj).
    assert (Hpc : (pc < length c)%nat) by (apply nth_error_Some; congruence).
    unfold valid_at in Hv. rewrite Hh in Hv.
    apply andb_true_iff in Hv. destruct Hv as [Hv1 Hv2].
    apply andb_true_iff in Hv1. destruct Hv1 as [_ Hjr].
    apply andb_true_iff in Hv2. destruct Hv2 as [_ Hnext].
    rewrite <- Hl in Hnext.
    set (G := fun j => exists pc', next_pc pc j = Some pc' /\ (pc < pc' <= length c)%nat /\
                                   nth_error H pc' = Some (Some (length st'))).
    assert (Near : height_is H (S pc) (length st') = true -> G None).
    { intros Hk. apply height_is_spec in Hk. exists (S pc). repeat split; try lia; assumption. }
    assert (Far : forall dd, (0 <=? dd) && (Z.of_nat (S pc) + dd <=? Z.of_nat (length c)) = true ->
                   height_is H (S pc + Z.to_nat dd) (length st') = true -> G (Some dd)).
    { intros dd Hr Hk. apply height_is_spec in Hk.
      apply andb_true_iff in Hr. destruct Hr as [Hd0 Hd1]. apply Z.leb_le in Hd0, Hd1.
      exists (S pc + Z.to_nat dd)%nat. cbn [next_pc]. rewrite jump_target_inside by lia.
      repeat split; try lia; assumption. }
    destruct i; cbn [jump_of] in Hj; try (destruct j; [contradiction|]; exact (Near Hnext)).
    - destruct j as [x|]; [subst x; exact (Far _ Hjr Hnext)|contradiction].
    - apply andb_true_iff in Hnext. destruct Hnext as [Hn1 Hn2].
      destruct j as [x|]; [subst x; exact (Far _ Hjr Hn2)|exact (Near Hn1)].
  Qed.

  (** Reachable states of the block (zero or more successful steps). *)
  Inductive reach : nat -> stack -> log -> nat -> stack -> log -> Prop :=
  | reach_refl pc st lg : reach pc st lg pc st lg
  | reach_step pc st lg i j st1 lg1 pc1 pc2 st2 lg2 :
      nth_error c pc = Some i ->
      step rs E d i st lg = (ROk (j, st1), lg1) ->
      next_pc pc j = Some pc1 ->
      reach pc1 st1 lg1 pc2 st2 lg2 ->
      reach pc st lg pc2 st2 lg2.

  Theorem reach_invariant pc st lg pc' st' lg' :
    reach pc st lg pc' st' lg' ->
    nth_error H pc = Some (Some (length st)) ->
    nth_error H pc' = Some (Some (length st')) /\ (pc <= pc' <= length c)%nat.
  Proof.
    induction 1 as [pc st lg | pc st lg i j st1 lg1 pc1 pc2 st2 lg2 Hn Hs Hnx Hr IH]; intros Hh.
    - split; [assumption|]. assert (pc < length H)%nat by (apply nth_error_Some; congruence).
      rewrite val_len in *. lia.
    - destruct (step_preserves pc i st lg j st1 lg1 Hn Hh Hs) as (pc1' & Hnx' & Hlt & Hh1).
      rewrite Hnx in Hnx'. inv Hnx'. destruct (IH Hh1) as [A B]. split; [assumption|lia].
  Qed.

  (** Every state reachable from the start of the block: stack height as
      assigned, no underflow at the next instruction, and exactly one value
      when the end of the block is reached. *)
  Theorem wf_no_underflow lg pc st lg' i :
    reach O [] lg pc st lg' -> nth_error c pc = Some i -> (pops i <= length st)%nat.
  Proof.
    intros Hr Hn. destruct (reach_invariant _ _ _ _ _ _ Hr val_start) as [Hh _].
    pose proof (val_at pc i Hn) as Hv. unfold valid_at in Hv. rewrite Hh in Hv.
    apply andb_true_iff in Hv. destruct Hv as [_ Hv]. apply andb_true_iff in Hv. destruct Hv as [Hv _].
    apply Nat.leb_le. assumption.
  Qed.

  Theorem wf_one_value_at_end lg st lg' :
    reach O [] lg (length c) st lg' -> length st = 1%nat.
  Proof.
    intros Hr. destruct (reach_invariant _ _ _ _ _ _ Hr val_start) as [Hh _].
    rewrite val_end in Hh. inv Hh. reflexivity.
  Qed.

  (** [loop] only visits reachable states, so its result has one value. *)
  Theorem loop_result_height : forall fuel pc st lg st' lg',
    nth_error H pc = Some (Some (length st)) ->
    loop rs fuel E d c pc st lg = (ROk st', lg') -> length st' = 1%nat.
  Proof.
    induction fuel as [|f IH]; intros pc st lg st' lg' Hh Hl; cbn [loop] in Hl; [discriminate|].
    destruct (nth_error c pc) as [i|] eqn:Hn.
    - apply mbind_ok in Hl. destruct Hl as ([j st1] & lg1 & Hs & Hl).
      destruct (step_preserves pc i st lg j st1 lg1 Hn Hh Hs) as (pc1 & Hnx & Hlt & Hh1).
      destruct j as [dd|]; cbn [next_pc] in Hnx.
      + rewrite Hnx in Hl. eapply IH; eauto.
      + inv Hnx. eapply IH; eauto.
    - unfold mret in Hl. inv Hl.
      apply nth_error_None in Hn.
      assert (pc < length H)%nat by (apply nth_error_Some; congruence).
      rewrite val_len in *. assert (pc = length c) by lia. subst pc.
      rewrite val_end in Hh. inv Hh. reflexivity.
  Qed.

  (** In validated code the VM's range check on jumps never fires. *)
  Theorem jump_always_in_range pc i st lg j st' lg' :
    nth_error c pc = Some i -> nth_error H pc = Some (Some (length st)) ->
    step rs E d i st lg = (ROk (j, st'), lg') -> next_pc pc j <> None.
  Proof.
    intros Hn Hh Hs. destruct (step_preserves pc i st lg j st' lg' Hn Hh Hs) as (pc' & Hx & _). congruence.
  Qed.
End Invariant.

Theorem loop_jump_out_of_range_is_error rs f E d c pc st lg i dist st1 lg1 :
  nth_error c pc = Some i ->
  step rs E d i st lg = (ROk (Some dist, st1), lg1) ->
  jump_target (S pc) dist (length c) = None ->
  loop rs (S f) E d c pc st lg = (RErr ERuntime, lg1).
Proof.
  intros Hn Hs Hj. cbn [loop]. rewrite Hn. unfold mbind. rewrite Hs. rewrite Hj. reflexivity.
Qed.
