(* Proofs/FoldSim.v — C09: what the compiler computes while folding is what the VM computes when it runs.
   The compiler evaluates a sub-expression on an interpreter that has no clock, no variables, no stored
   programs and no caller-bound functions, and freezes the value only if that evaluation never asked for
   such a run-time input (the mark in the log).  Simulation: an evaluation under such an environment Ef
   that ends without a mark is reproduced, outcome for outcome, under every environment E that extends
   Ef - more variables, more programs, a clock, has / coalesce, caller-bound functions under names that
   do not replace a built-in - whatever the log was before.  The whole interpreter, every nested run,
   every macro and every built-in are covered. *)
From Coq Require Import ZArith List Bool.
From Rscel Require Import Base.Prims Model.Value Model.Funcs Model.Interp
     Model.Compile Proofs.OpsColl Proofs.OpsOrder Proofs.Fold.
Import ListNotations.
Import Coq.Strings.String.StringSyntax.
Open Scope Z_scope.

(** [m] (folding) is reproduced by [m'] (running) whenever it ends unmarked; marks are never removed;
    what [m] returns satisfies [P] *)
Definition fsim {A} (P : A -> Prop) (m m' : M A) : Prop :=
  forall lg r lg1, m lg = (r, lg1) ->
    (forall a, r = ROk a -> P a) /\
    (runtime_requested lg = true -> runtime_requested lg1 = true) /\
    (runtime_requested lg1 = false -> forall lg2, exists lg2', m' lg2 = (r, lg2')).

Definition anyv {A} : A -> Prop := fun _ => True.

Lemma marked_cons lg : runtime_requested (runtime_mark :: lg) = true.
Proof. reflexivity. Qed.

Lemma unmarked_before (a b : bool) : (a = true -> b = true) -> b = false -> a = false.
Proof. destruct a; [intros H Hb; rewrite H in Hb by reflexivity; discriminate|reflexivity]. Qed.

Lemma fsim_lift {A} (P : A -> Prop) r : (forall a, r = ROk a -> P a) -> fsim P (mlift r) (mlift r).
Proof.
  intros H lg r0 lg1 E. injection E as <- <-. split; [exact H|]. split; [auto|]. intros _ lg2. exists lg2. reflexivity.
Qed.
Lemma fsim_ret {A} (P : A -> Prop) a : P a -> fsim P (mret a) (mret a).
Proof. intros H. apply (fsim_lift P (ROk a)). intros a0 E0. injection E0 as <-. exact H. Qed.
Lemma fsim_ret_any {A} (a : A) : fsim anyv (mret a) (mret a).
Proof. apply fsim_ret. exact Logic.I. Qed.
Lemma fsim_fail {A} (P : A -> Prop) e : fsim P (mfail e) (mfail e).
Proof. apply (fsim_lift P (RErr e)). discriminate. Qed.
Lemma fsim_mark {A} (P : A -> Prop) e (m' : M A) : fsim P (mfail_runtime e) m'.
Proof.
  intros lg r lg1 E. injection E as <- <-. split; [intros a0 E0; discriminate|]. split; [intros _; reflexivity|]. rewrite marked_cons. discriminate.
Qed.
Lemma fsim_bind {A B} (P : A -> Prop) (Q : B -> Prop) m m' f f' :
  fsim P m m' -> (forall a, P a -> fsim Q (f a) (f' a)) -> fsim Q (mbind m f) (mbind m' f').
Proof.
  intros Hm Hf lg r lg1 E. unfold mbind in E. destruct (m lg) as [ra lga] eqn:Em.
  destruct (Hm lg ra lga Em) as (Pa & Mono & Sim).
  destruct ra as [a|e| | |].
  { destruct (Hf a (Pa a eq_refl) lga r lg1 E) as (Qb & Mono2 & Sim2). split; [exact Qb|]. split; [auto|].
    intros Hn lg2. destruct (Sim (unmarked_before _ _ Mono2 Hn) lg2) as [lg2a E2]. destruct (Sim2 Hn lg2a) as [lg2' E3]. exists lg2'. unfold mbind. rewrite E2. exact E3. }
  all: injection E as <- <-; split; [intros; discriminate|]; split; [exact Mono|]; intros Hn lg2.
  all: destruct (Sim Hn lg2) as [lg2' E2]; exists lg2'; unfold mbind; rewrite E2; reflexivity.
Qed.
Lemma fsim_weaken {A} (P Q : A -> Prop) m m' : fsim P m m' -> (forall a, P a -> Q a) -> fsim Q m m'.
Proof. intros H HPQ lg r lg1 E. destruct (H lg r lg1 E) as (Pa & Mono & Sim). split; [intros a Ea; apply HPQ; auto|]. split; assumption. Qed.
Lemma fsim_bind_ret {A B} (Q : B -> Prop) (a : A) (f f' : A -> M B) : fsim Q (f a) (f' a) -> fsim Q (mbind (mret a) f) (mbind (mret a) f').
Proof. intros H. exact H. Qed.

(** The macros look at the outcome of a nested run themselves: [g] turns it into an answer, the log untouched, or
    lets [k] go on from the log the run left. *)
Lemma fsim_case {A B} (g : res A -> option (res B)) (m m' : M A) (k k' n n' : M B) :
  fsim anyv m m' -> fsim anyv k k' ->
  (forall lg, n lg = match g (fst (m lg)) with Some y => (y, snd (m lg)) | None => k (snd (m lg)) end) ->
  (forall lg, n' lg = match g (fst (m' lg)) with Some y => (y, snd (m' lg)) | None => k' (snd (m' lg)) end) ->
  fsim anyv n n'.
Proof.
  intros Hm Hk Hn Hn' lg r lg1 E. rewrite Hn in E. destruct (m lg) as [ra lga] eqn:Em. cbn [fst snd] in E.
  destruct (Hm lg ra lga Em) as (_ & Mono & Sim). destruct (g ra) as [y|] eqn:G.
  - injection E as <- <-. split; [intros; exact Logic.I|]. split; [exact Mono|]. intros Hu lg2. destruct (Sim Hu lg2) as [lg2' E2].
    exists lg2'. rewrite Hn', E2. cbn [fst snd]. rewrite G. reflexivity.
  - destruct (Hk lga r lg1 E) as (_ & Mono2 & Sim2). split; [intros; exact Logic.I|]. split; [auto|]. intros Hu lg2.
    destruct (Sim (unmarked_before _ _ Mono2 Hu) lg2) as [lg2a E2]. destruct (Sim2 Hu lg2a) as [lg2' E3]. exists lg2'. rewrite Hn', E2. cbn [fst snd]. rewrite G. exact E3.
Qed.

Lemma fsim_post {A B} (m m' : M A) (g : res A -> res B) (n n' : M B) :
  fsim anyv m m' ->
  (forall lg, n lg = (g (fst (m lg)), snd (m lg))) -> (forall lg, n' lg = (g (fst (m' lg)), snd (m' lg))) ->
  fsim anyv n n'.
Proof. intros Hm. exact (fsim_case (fun r => Some (g r)) m m' (mfail EInternal) (mfail EInternal) n n' Hm (fsim_fail _ _)). Qed.

(** [fsim anyv] is closed under every construct of the monad: follow the shape of the two terms, which differ in the
    environment only; [known] closes the named sub-computations and is tried before [fsim_bind], which would unfold them *)
Ltac fsim_walk known :=
  repeat first
    [ match goal with
      | |- fsim _ (let '(_, _) := ?p in _) _ => destruct p
      | |- fsim _ (match ?x with _ => _ end) _ => destruct x
      | |- fsim _ (if ?b then _ else _) _ => destruct b
      end
    | apply fsim_ret_any | apply fsim_fail | known | eapply fsim_bind; [|intros ? _] ].

(** a question about the clock, while folding, leaves the mark; then it no longer matters what the run does *)
Lemma fsim_note_clock {A} (P : A -> Prop) Ef E asked (k k' : M A) :
  folding Ef = true -> fsim P k k -> (asked = false -> k' = k) ->
  fsim P (do _ <- note_clock Ef asked; k) (do _ <- note_clock E asked; k').
Proof.
  intros Hf Hk Hs lg r lg1 E0. unfold mbind, note_clock in E0. rewrite Hf in E0. cbn [andb] in E0.
  destruct (Hk _ r lg1 E0) as (Pa & Mono & Sim). split; [exact Pa|]. destruct asked.
  - split; [intros _; apply Mono, marked_cons|]. intros Hu. rewrite Mono in Hu by apply marked_cons. discriminate.
  - split; [exact Mono|]. intros Hu lg2. destruct (Sim Hu lg2) as [lg2' E2]. exists lg2'.
    unfold mbind, note_clock. rewrite andb_false_r, (Hs eq_refl). exact E2.
Qed.

(** E extends the folding environment Ef *)
Record frel (Ef E : env) : Prop := mkFrel {
  fr_bound : e_bound Ef = e_bound E;
  fr_fold : e_now Ef = None;
  fr_nouf : e_ufuncs Ef = [];
  fr_uf : forall n u, assoc n (e_ufuncs E) = Some u ->
            is_default_func n = false /\ mem_bytes n compile_macros = false /\ mem_bytes n runtime_macros = false /\ get_type n = None;
  fr_runtime : e_runtime Ef = true -> e_runtime E = true;
  fr_sorted : smap (e_params Ef) /\ smap (e_params E);
  fr_params : forall n v, map_get (e_params Ef) n = Some v -> map_get (e_params E) n = Some v;
  fr_noprogs : e_progs Ef = []
}.

Lemma frel_empty : frel empty_env empty_env.
Proof. constructor; try reflexivity; try (intros; discriminate). split; exact Logic.I. Qed.

Lemma frel_bind Ef E k v : frel Ef E -> frel (bind_param Ef k v) (bind_param E k v).
Proof.
  intros [A1 A2 A3 A4 A5 [A6 A6'] A7 A8].
  constructor; cbn [bind_param e_bound e_params e_progs e_ufuncs e_runtime e_now]; auto.
  - split; apply map_insert_sorted; assumption.
  - intros n v0. rewrite !map_get_insert by assumption. destruct (bytes_eqb n k); auto.
Qed.

Lemma frel_folding Ef E : frel Ef E -> folding Ef = true.
Proof. intros A. unfold folding. rewrite (fr_fold _ _ A). reflexivity. Qed.
Lemma frel_type Ef E n : frel Ef E -> env_type Ef n = env_type E n.
Proof. intros A. unfold env_type. rewrite (fr_bound _ _ A). reflexivity. Qed.
Lemma runtime_macro_no_type n : mem_bytes n runtime_macros = true -> get_type n = None.
Proof.
  unfold runtime_macros, mem_bytes. cbn [existsb]. intros H. apply orb_prop in H. destruct H as [H|H].
  - apply bytes_eqb_eq in H. subst. reflexivity.
  - apply orb_prop in H. destruct H as [H|H]; [|discriminate]. apply bytes_eqb_eq in H. subst. reflexivity.
Qed.

(** What a name in call position denotes while folding, it denotes at run time: a built-in function stays
    one, a macro is not shadowed by a caller's function, and the name of a type becomes neither a function
    nor a macro (the two macros the run time adds are not type names). *)
Lemma frel_func Ef E n : frel Ef E -> has_func Ef n = true -> has_func E n = true /\ is_default_func n = true.
Proof.
  intros A. unfold has_func. rewrite (fr_nouf _ _ A), (fr_bound _ _ A). destruct (e_bound E); [|discriminate]. cbn [andb assoc orb].
  intros ->. split; [apply orb_true_r|reflexivity].
Qed.
Lemma frel_has_func_new Ef E n : frel Ef E -> has_func Ef n = false -> has_func E n = true ->
  mem_bytes n compile_macros = false /\ mem_bytes n runtime_macros = false /\ get_type n = None.
Proof.
  intros A. unfold has_func. rewrite (fr_nouf _ _ A), (fr_bound _ _ A). destruct (e_bound E); [|discriminate]. cbn [andb assoc orb].
  intros ->. rewrite orb_false_r. destruct (assoc n (e_ufuncs E)) as [u|] eqn:U; [|discriminate]. intros _.
  destruct (fr_uf _ _ A n u U) as (_ & B & C & D). auto.
Qed.
Lemma frel_macro Ef E n : frel Ef E -> has_func Ef n = false -> has_macro Ef n = true -> has_func E n = false /\ has_macro E n = true.
Proof.
  intros A F Mc. split.
  - destruct (has_func E n) eqn:F'; [|reflexivity]. destruct (frel_has_func_new Ef E n A F F') as (B & C & _).
    unfold has_macro in Mc. rewrite B, C, andb_false_r in Mc. cbn in Mc. rewrite andb_false_r in Mc. discriminate.
  - revert Mc. unfold has_macro. rewrite (fr_bound _ _ A). destruct (e_bound E); [|discriminate]. cbn [andb].
    destruct (mem_bytes n compile_macros); [reflexivity|]. cbn [orb]. destruct (e_runtime Ef) eqn:R; [|discriminate].
    rewrite (fr_runtime _ _ A R). auto.
Qed.
Lemma frel_typed Ef E n t : frel Ef E -> has_func Ef n = false -> has_macro Ef n = false -> env_type Ef n = Some t ->
  has_func E n = false /\ has_macro E n = false.
Proof.
  intros A F Mc T.
  assert (Gt : get_type n <> None) by (unfold env_type in T; destruct (e_bound Ef); [rewrite T|]; discriminate).
  split.
  - destruct (has_func E n) eqn:F'; [|reflexivity]. destruct (frel_has_func_new Ef E n A F F') as (_ & _ & D). contradiction.
  - destruct (has_macro E n) eqn:Mc'; [|reflexivity]. exfalso. apply Gt, runtime_macro_no_type.
    revert Mc Mc'. unfold has_macro. rewrite (fr_bound _ _ A). destruct (e_bound E); [|discriminate]. cbn [andb].
    destruct (mem_bytes n compile_macros); [discriminate|]. cbn [orb]. intros _ H. apply andb_prop in H. apply H.
Qed.

Section Sim.
  Variable rs : runner.
  Hypothesis Hrs : forall Ef E c r d, frel Ef E -> (r = true \/ e_bound E = false) -> fsim anyv (rs Ef c r d) (rs E c r d).

  Variables Ef E : env.
  Hypothesis HA : frel Ef E.
  Variable d : nat.

  (** a method call that was resolved while folding names a built-in *)
  Definition sbok (x : sval) : Prop := match x with SBound false n _ => is_default_func n = true | _ => True end.
  Definition stok (st : stack) : Prop := Forall sbok st.
  Definition okp {A} (P : A -> Prop) (p : A * stack) : Prop := P (fst p) /\ stok (snd p).

  Lemma sim_resolve_ident n : fsim anyv (resolve_ident rs Ef d n) (resolve_ident rs E d n).
  Proof.
    unfold resolve_ident. rewrite <- (frel_type Ef E n HA).
    destruct (env_type Ef n) as [t|]; [apply fsim_ret_any|].
    rewrite (fr_noprogs _ _ HA), (fr_fold _ _ HA). cbn [assoc].
    unfold env_param. rewrite <- (fr_bound _ _ HA). destruct (e_bound Ef); [|apply fsim_mark].
    destruct (map_get (e_params Ef) n) as [v|] eqn:P; [|apply fsim_mark].
    rewrite (fr_params _ _ HA n v P). apply fsim_ret_any.
  Qed.

  Lemma sim_pop st : stok st -> fsim (okp sbok) (pop rs Ef d st) (pop rs E d st).
  Proof.
    intros H. unfold pop. destruct st as [|x st']; [apply fsim_fail|]. inversion H as [|? ? Hx Hst]; subst.
    destruct x as [v|b n o]; [|apply fsim_ret; split; assumption].
    destruct v; try (apply fsim_ret; split; assumption).
    eapply fsim_bind; [apply sim_resolve_ident|]. intros v _. apply fsim_ret. split; [exact Logic.I|assumption].
  Qed.

  Lemma sim_into_value x : fsim anyv (into_value x) (into_value x).
  Proof. destruct x; [apply fsim_ret_any|apply fsim_fail]. Qed.

  Lemma sim_pop_val st : stok st -> fsim (okp anyv) (pop_val rs Ef d st) (pop_val rs E d st).
  Proof.
    intros H. unfold pop_val. eapply fsim_bind; [apply sim_pop; exact H|]. intros [x st'] [Hx Hst]. cbn [fst snd] in *.
    eapply fsim_bind; [apply sim_into_value|]. intros v _. apply fsim_ret. split; [exact Logic.I|assumption].
  Qed.

  Lemma fsim_bind_pop {A B} (Q : B -> Prop) m m' (k k' : A * stack -> M B) : fsim (okp anyv) m m' ->
    (forall a st, stok st -> fsim Q (k (a, st)) (k' (a, st))) -> fsim Q (mbind m k) (mbind m' k').
  Proof. intros Hm Hk. eapply fsim_bind; [exact Hm|]. intros [a st] [_ Hs]. exact (Hk a st Hs). Qed.

  Lemma sim_pop_n n : forall st, stok st -> fsim (okp anyv) (pop_n rs Ef d n st) (pop_n rs E d n st).
  Proof.
    induction n as [|n IH]; intros st H; cbn [pop_n]; [apply fsim_ret; split; [exact Logic.I|exact H]|].
    eapply fsim_bind_pop; [apply sim_pop_val; exact H|]. intros v st1 H1.
    eapply fsim_bind_pop; [apply IH; exact H1|]. intros vs st2 H2.
    apply fsim_ret. split; [exact Logic.I|exact H2].
  Qed.

  Lemma sim_resolve_args args : fsim anyv (resolve_args rs Ef d args) (resolve_args rs E d args).
  Proof.
    induction args as [|a r IH]; cbn [resolve_args]; fsim_walk ltac:(first [apply Hrs; [exact HA|left; reflexivity]|exact IH]).
  Qed.

  Lemma sim_call_func name this args : is_default_func name = true ->
    fsim anyv (call_func Ef name this args) (call_func E name this args).
  Proof.
    intros Hd. unfold call_func. rewrite (fr_nouf _ _ HA). cbn [assoc].
    destruct (assoc name (e_ufuncs E)) as [u|] eqn:U.
    { destruct (fr_uf _ _ HA name u U) as (B & _). rewrite B in Hd. discriminate. }
    apply fsim_note_clock; [exact (frel_folding Ef E HA)| |].
    - destruct (call_default (e_now Ef) name this args) as [r|]; [apply fsim_lift; intros; exact Logic.I|apply fsim_fail].
    - intros Hask. rewrite (fr_fold _ _ HA), (proj1 (unasked_calls_ignore_the_clock None (e_now E) name this args name) Hask). reflexivity.
  Qed.

  Lemma frel_ident : frel (ident_env Ef) (ident_env E).
  Proof. constructor; try reflexivity; try (intros; discriminate); [exact (fr_fold _ _ HA)|split; exact Logic.I]. Qed.

  Lemma sim_eval_ident c : fsim anyv (eval_ident rs Ef c) (eval_ident rs E c).
  Proof.
    apply (fsim_post (rs (ident_env Ef) c false O) (rs (ident_env E) c false O)
             (fun r => match r with ROk (VIdent s) => ROk (inr s) | ROk _ => ROk (inl (VErr EMisc)) | RErr e => ROk (inl (VErr e)) | r => mcast r end)).
    - apply Hrs; [exact frel_ident|right; reflexivity].
    - intros lg. unfold eval_ident. destruct (rs (ident_env Ef) c false O lg) as [[v|e| | |] lg']; try reflexivity. destruct v; reflexivity.
    - intros lg. unfold eval_ident. destruct (rs (ident_env E) c false O lg) as [[v|e| | |] lg']; try reflexivity. destruct v; reflexivity.
  Qed.

  Lemma sim_run_body E1 E1' c : frel E1 E1' -> fsim anyv (run_body rs d E1 c) (run_body rs d E1' c).
  Proof.
    intros A.
    apply (fsim_post (rs E1 c true d) (rs E1' c true d)
             (fun r => match r with ROk v => ROk (inr v) | RErr e => ROk (inl (VErr e)) | r => mcast r end)).
    - apply Hrs; [exact A|left; reflexivity].
    - intros lg. unfold run_body. destruct (rs E1 c true d lg) as [[v|e| | |] lg']; reflexivity.
    - intros lg. unfold run_body. destruct (rs E1' c true d lg) as [[v|e| | |] lg']; reflexivity.
  Qed.

  Lemma sim_with_ident c k k' : (forall x, fsim anyv (k x) (k' x)) -> fsim anyv (with_ident rs Ef c k) (with_ident rs E c k').
  Proof.
    intros Hk. unfold with_ident. eapply fsim_bind; [apply sim_eval_ident|]. intros [e|x] _; [apply fsim_ret_any|apply Hk].
  Qed.

  Ltac in_loop IH := first [apply sim_run_body; repeat apply frel_bind; exact HA | apply IH].

  Lemma sim_all_loop x body l : fsim anyv (all_loop rs Ef d x body l) (all_loop rs E d x body l).
  Proof. induction l as [|v l IH]; cbn [all_loop]; fsim_walk ltac:(in_loop IH). Qed.
  Lemma sim_exists_loop x body l : fsim anyv (exists_loop rs Ef d x body l) (exists_loop rs E d x body l).
  Proof. induction l as [|v l IH]; cbn [exists_loop]; fsim_walk ltac:(in_loop IH). Qed.
  Lemma sim_exists_one_loop x body l : forall count,
    fsim anyv (exists_one_loop rs Ef d x body l count) (exists_one_loop rs E d x body l count).
  Proof. induction l as [|v l IH]; intros count; cbn [exists_one_loop]; fsim_walk ltac:(in_loop IH). Qed.
  Lemma sim_filter_loop x body l : forall acc,
    fsim anyv (filter_loop rs Ef d x body l acc) (filter_loop rs E d x body l acc).
  Proof. induction l as [|v l IH]; intros acc; cbn [filter_loop]; fsim_walk ltac:(in_loop IH). Qed.
  Lemma sim_map_loop x pred f l : forall acc,
    fsim anyv (map_loop rs Ef d x pred f l acc) (map_loop rs E d x pred f l acc).
  Proof. induction l as [|v l IH]; intros acc; cbn [map_loop]; fsim_walk ltac:(in_loop IH). Qed.
  Lemma sim_reduce_loop cur next body l : forall acc,
    fsim anyv (reduce_loop rs Ef d cur next body l acc) (reduce_loop rs E d cur next body l acc).
  Proof. induction l as [|v l IH]; intros acc; cbn [reduce_loop]; fsim_walk ltac:(in_loop IH). Qed.

  Lemma sim_coalesce_loop args : fsim anyv (coalesce_loop rs Ef d args) (coalesce_loop rs E d args).
  Proof.
    induction args as [|c r IH]; cbn [coalesce_loop]; [apply fsim_ret_any|].
    apply (fsim_case (fun x => match x with
                               | ROk VNull => None | ROk v => Some (ROk v)
                               | RErr (EBinding _) | RErr (EAttribute _) => None
                               | RErr e => Some (ROk (VErr e)) | x => Some (mcast x) end)
             (rs Ef c true d) (rs E c true d) (coalesce_loop rs Ef d r) (coalesce_loop rs E d r));
      [apply Hrs; [exact HA|left; reflexivity]|exact IH| |];
      (intros lg; destruct (rs _ c true d lg) as [[v|e| | |] lg']; cbn [fst snd]; try reflexivity; [destruct v|destruct e]; reflexivity).
  Qed.

  Lemma sim_call_macro_impl name this args :
    fsim anyv (call_macro_impl rs Ef d name this args) (call_macro_impl rs E d name this args).
  Proof.
    unfold call_macro_impl.
    destruct (bytes_eqb name _).
    { destruct args as [|c [|c2 r]]; try (apply fsim_ret_any).
      apply (fsim_post (rs Ef c true d) (rs E c true d)
               (fun x => match x with ROk _ => ROk (VBool true) | RErr (EBinding _) | RErr (EAttribute _) => ROk (VBool false)
                                  | RErr e => ROk (VErr e) | x => mcast x end)).
      - apply Hrs; [exact HA|left; reflexivity].
      - intros lg. destruct (rs Ef c true d lg) as [[v|e| | |] lg']; try reflexivity. destruct e; reflexivity.
      - intros lg. destruct (rs E c true d lg) as [[v|e| | |] lg']; try reflexivity. destruct e; reflexivity. }
    fsim_walk ltac:(first [ apply sim_coalesce_loop | apply sim_with_ident; intros | apply sim_run_body; exact HA
                          | apply sim_all_loop | apply sim_exists_loop | apply sim_exists_one_loop
                          | apply sim_filter_loop | apply sim_map_loop | apply sim_reduce_loop ]).
  Qed.

  Lemma sim_call_macro name this args :
    fsim anyv (call_macro rs Ef d name this args) (call_macro rs E d name this args).
  Proof. unfold call_macro. destruct (all_code args) as [cs|]; [apply sim_call_macro_impl|apply fsim_fail]. Qed.

  Definition okj (r : option Z * stack) : Prop := stok (snd r).

  Lemma stok_push v st : stok st -> stok (push v st).
  Proof. intros. constructor; [exact Logic.I|assumption]. Qed.

  Lemma sim_bin f st : stok st -> fsim okj (bin rs Ef d f st) (bin rs E d f st).
  Proof.
    intros H. unfold bin. eapply fsim_bind_pop; [apply sim_pop_val; exact H|]. intros v2 st1 Hs1.
    eapply fsim_bind_pop; [apply sim_pop_val; exact Hs1|]. intros v1 st2 Hs2.
    apply fsim_ret. apply stok_push. exact Hs2.
  Qed.
  Lemma sim_un f st : stok st -> fsim okj (un rs Ef d f st) (un rs E d f st).
  Proof.
    intros H. unfold un. eapply fsim_bind_pop; [apply sim_pop_val; exact H|]. intros v1 st1 Hs1.
    apply fsim_ret. apply stok_push. exact Hs1.
  Qed.

  Lemma sim_step_access st : match st with [] => True | _ :: st0 => stok st0 end ->
    fsim okj (step rs Ef d IAccess st) (step rs E d IAccess st).
  Proof.
    intros H. cbn [step]. unfold pop_noresolve. destruct st as [|idx st1]; [apply fsim_fail|].
    apply fsim_bind_ret.
    destruct idx as [v|b n o]; [|apply fsim_fail].
    destruct v; try (eapply fsim_bind_pop; [apply sim_pop_val; exact H|]; intros o st2 Hs2;
                     apply fsim_ret; apply stok_push; exact Hs2).
    eapply fsim_bind_pop; [apply sim_pop_val; exact H|]. intros obj st2 Hs2.
    (* a name that is no field: a method, a macro, or an absent attribute *)
    set (lf := if has_func Ef s then _ else _). set (le := if has_func E s then _ else _).
    assert (Ladder : fsim okj lf le).
    { unfold lf, le. destruct (has_func Ef s) eqn:F.
      - destruct (frel_func Ef E s HA F) as [-> Hd]. apply fsim_ret. constructor; [exact Hd|exact Hs2].
      - destruct (has_macro Ef s) eqn:Mc.
        + destruct (frel_macro Ef E s HA F Mc) as [-> ->]. apply fsim_ret. constructor; [exact Logic.I|exact Hs2].
        + rewrite (frel_folding Ef E HA). apply fsim_mark. }
    destruct obj; try (rewrite <- (fr_bound _ _ HA); destruct (negb (e_bound Ef)); [apply fsim_fail|exact Ladder]).
    - destruct (map_get m s) as [v|]; [apply fsim_ret; apply stok_push; exact Hs2|exact Ladder].
    - apply fsim_ret. apply stok_push. exact Hs2.
  Qed.

  Lemma sim_ctor tn args st2 : stok st2 ->
    fsim okj (do vals <- resolve_args rs Ef d args; do _ <- note_clock Ef (asks_clock_ty tn vals); do r <- mlift (construct_type (e_now Ef) tn vals); mret (None, push r st2))
             (do vals <- resolve_args rs E d args; do _ <- note_clock E (asks_clock_ty tn vals); do r <- mlift (construct_type (e_now E) tn vals); mret (None, push r st2)).
  Proof.
    intros Hs2. eapply fsim_bind; [apply sim_resolve_args|]. intros vals _.
    apply fsim_note_clock; [exact (frel_folding Ef E HA)| |].
    - eapply fsim_bind; [apply fsim_lift; intros; exact Logic.I|]. intros r _. apply fsim_ret. apply stok_push. exact Hs2.
    - intros Hask. rewrite (fr_fold _ _ HA), (proj2 (unasked_calls_ignore_the_clock None (e_now E) tn VNull vals tn) Hask). reflexivity.
  Qed.

  Lemma sim_step_call n st :
    match st with [] => True | x :: st0 => stok st0 /\ sbok x end ->
    fsim okj (step rs Ef d (ICall n) st) (step rs E d (ICall n) st).
  Proof.
    intros H. cbn [step].
    unfold pop_noresolve. destruct st as [|callee st1]; [apply fsim_fail|]. destruct H as [Hs1 Hc].
    apply fsim_bind_ret.
    eapply fsim_bind_pop; [apply sim_pop_n; exact Hs1|]. intros args st2 Hs2.
    assert (Push : forall r, fsim okj (mret (None, push r st2)) (mret (None, push r st2))).
    { intros r. apply fsim_ret. apply stok_push. exact Hs2. }
    destruct callee as [v|[|] name this].
    - destruct v; try (apply Push); try (apply sim_ctor; exact Hs2).
      destruct (has_func Ef s) eqn:F.
      { destruct (frel_func Ef E s HA F) as [-> Hd].
        eapply fsim_bind; [apply sim_resolve_args|]. intros vals _.
        eapply fsim_bind; [apply sim_call_func; exact Hd|intros r _; apply Push]. }
      destruct (has_macro Ef s) eqn:Mc.
      { destruct (frel_macro Ef E s HA F Mc) as [-> ->].
        eapply fsim_bind; [apply sim_call_macro|intros r _; apply Push]. }
      rewrite <- (frel_type Ef E s HA), (frel_folding Ef E HA).
      destruct (env_type Ef s) as [t|] eqn:T.
      + destruct (frel_typed Ef E s t HA F Mc T) as [-> ->].
        destruct t; try apply fsim_mark. apply sim_ctor. exact Hs2.
      + destruct (has_func E s); [apply fsim_mark|]. destruct (has_macro E s); apply fsim_mark.
    - eapply fsim_bind; [apply sim_call_macro|intros r _; apply Push].
    - eapply fsim_bind; [apply sim_resolve_args|]. intros vals _.
      eapply fsim_bind; [apply sim_call_func; exact Hc|intros r _; apply Push].
  Qed.

  Lemma sim_step i st : stok st -> fsim okj (step rs Ef d i st) (step rs E d i st).
  Proof.
    intros H.
    destruct i; cbn [step]; try (apply sim_bin; assumption); try (apply sim_un; assumption).
    - apply fsim_ret. apply stok_push; assumption.
    - eapply fsim_bind_pop; [apply sim_pop_val; exact H|]. intros v st1 Hs1. apply fsim_ret. exact Hs1.
    - eapply fsim_bind_pop; [apply sim_pop_val; exact H|]. intros v st1 Hs1.
      destruct (is_err v); apply fsim_ret; apply stok_push; auto.
    - eapply fsim_bind_pop; [apply sim_pop_val; exact H|]. intros v st1 Hs1.
      apply fsim_ret. apply stok_push. apply stok_push. assumption.
    - apply fsim_ret. exact H.
    - eapply fsim_bind_pop; [apply sim_pop_val; exact H|]. intros v st1 Hs1.
      destruct v; try apply fsim_fail; apply fsim_ret; exact Hs1.
    - eapply fsim_bind_pop; [apply sim_pop_n; exact H|]. intros vs st1 Hs1.
      apply fsim_ret. apply stok_push. exact Hs1.
    - match goal with |- fsim _ (?g (Z.to_nat n) st [] false) (?g' (Z.to_nat n) st [] false) =>
        assert (G : forall k st0 acc bad, stok st0 -> fsim okj (g k st0 acc bad) (g' k st0 acc bad));
          [|apply G; exact H] end.
      induction k as [|k IH]; intros st0 acc bad Hs0.
      + destruct bad; apply fsim_ret; apply stok_push; exact Hs0.
      + eapply fsim_bind_pop; [apply sim_pop_val; exact Hs0|]. intros key st1 Hs1.
        eapply fsim_bind_pop; [apply sim_pop_val; exact Hs1|]. intros v st2 Hs2.
        destruct key; apply IH; assumption.
    - apply sim_step_access. destruct st; [exact Logic.I|]. inversion H; assumption.
    - apply sim_step_call. destruct st as [|x st0]; [exact Logic.I|]. inversion H; subst. split; assumption.
    - eapply fsim_bind_pop; [apply sim_pop_n; exact H|]. intros segs st1 Hs1.
      match goal with |- fsim _ (?g (rev segs) []) _ => assert (G : forall l acc, fsim okj (g l acc) (g l acc)); [|apply G] end.
      induction l as [|x l IH]; intros acc; [apply fsim_ret; apply stok_push; exact Hs1|]. destruct x; try apply fsim_fail. apply IH.
  Qed.

  Theorem sim_loop c : forall fuel pc st, stok st ->
    fsim stok (loop rs fuel Ef d c pc st) (loop rs fuel E d c pc st).
  Proof.
    induction fuel as [|f IH]; intros pc st Hst.
    { apply (fsim_lift stok RFuel). discriminate. }
    cbn [loop]. destruct (nth_error c pc) as [i|]; [|apply fsim_ret; exact Hst].
    eapply fsim_bind; [apply sim_step; exact Hst|]. intros [j st'] Hj. unfold okj in Hj. cbn [snd] in Hj.
    destruct j as [dd|]; [|apply IH; exact Hj].
    destruct (jump_target (Datatypes.S pc) dd (length c)); [apply IH; exact Hj|apply fsim_fail].
  Qed.

  Lemma sim_finish resolve st : (resolve = true \/ e_bound E = false) -> stok st ->
    fsim anyv (finish rs Ef d resolve st) (finish rs E d resolve st).
  Proof.
    intros Hr H. unfold finish. destruct resolve.
    - eapply fsim_bind; [apply sim_pop; exact H|]. intros [x st'] _. cbn [fst] in *.
      eapply fsim_bind; [apply sim_into_value|]. intros v _. unfold into_result. destruct v; try (apply fsim_ret_any). apply fsim_fail.
    - destruct Hr as [Hr|Hb]; [discriminate|].
      destruct st as [|[v|b n o] st']; try apply fsim_fail. unfold into_result.
      destruct v; try (apply fsim_ret_any); try apply fsim_fail.
      unfold env_param. rewrite (fr_bound _ _ HA), Hb. apply fsim_ret_any.
  Qed.
End Sim.

Theorem fold_simulation : forall fuel Ef E c r d, frel Ef E -> (r = true \/ e_bound E = false) ->
  fsim anyv (run fuel Ef c r d) (run fuel E c r d).
Proof.
  induction fuel as [|f IH]; intros Ef E c r d HA Hr.
  { apply (fsim_lift anyv RFuel). discriminate. }
  cbn [run]. destruct (Nat.ltb 32 (Datatypes.S d)); [apply fsim_fail|].
  eapply fsim_bind.
  - apply (sim_loop (run f) IH Ef E HA (Datatypes.S d) c f 0%nat []). constructor.
  - intros st Hst. apply (sim_finish (run f) Ef E HA (Datatypes.S d) r st Hr Hst).
Qed.

(** every binding a caller can set up extends the compiler's folding environment, as long as its own
    functions do not take the name of a built-in function, macro or type (when they do, a call with
    constant arguments has already been folded with the built-in: known finding
    bound-function-vs-folded-call of C12) *)
Definition no_builtin_replaced (ufs : list (bytes * ufun)) : Prop :=
  forall n u, assoc n ufs = Some u ->
    is_default_func n = false /\ mem_bytes n compile_macros = false /\ mem_bytes n runtime_macros = false /\ get_type n = None.

Lemma frel_compile_env params progs ufs rt now : smap params -> no_builtin_replaced ufs ->
  frel compile_env (mkEnv true params progs ufs rt now).
Proof. intros Hs Hu. constructor; try reflexivity; try (intros; discriminate); [exact Hu|split; [exact Logic.I|exact Hs]]. Qed.

(** The value the compiler freezes is the value the bytecode it replaces evaluates to, at every
    execution: under any variables, stored programs, clock and caller-bound functions. *)
Theorem frozen_constant_is_what_runs : forall fuel node n n' bc v params,
  resolve (into_bytecode (cp_node node)) = Some bc ->
  check_for_const fuel node n = COk (mkCP (NConst v) params) n' ->
  forall vars progs ufs rt now lg, smap vars -> no_builtin_replaced ufs ->
  exists lg', run fuel (mkEnv true vars progs ufs rt now) bc true O lg = (ROk v, lg').
Proof.
  intros fuel node n n' bc v params Hr Hc vars progs ufs rt now lg Hs Hu.
  destruct (check_for_const_ok _ _ _ _ _ Hc) as (bc' & Hr' & _ & Hnode). rewrite Hr in Hr'. injection Hr' as <-.
  destruct Hnode as [Hn|(v0 & lg0 & Hn & R & G)]; [discriminate Hn|]. injection Hn as <-.
  exact (proj2 (proj2 (fold_simulation fuel compile_env (mkEnv true vars progs ufs rt now) bc true O
                         (frel_compile_env vars progs ufs rt now Hs Hu) (or_introl eq_refl) [] (ROk v) lg0 R)) G lg).
Qed.

(** the premises are met by an ordinary binding, and the compiler does freeze a macro over constants *)
Example frozen_constant_example :
  let E := mkEnv true [(#"x", VInt 5)] [(#"p", [IPush (VInt 1)])] [(#"f", UFArg0)] true (Some 1700000000000) in
  smap (e_params E) /\ no_builtin_replaced (e_ufuncs E) /\
  match compile_source 40 #"[1, 2, 3].map(v, v * 2)[1] + size('ab')" with
  | COk p _ => pr_code p
  | _ => []
  end = [IPush (VInt 6)].
Proof.
  split; [cbn; auto|]. split; [|vm_compute; reflexivity].
  intros n u. cbn [e_ufuncs assoc]. destruct (bytes_eqb n #"f") eqn:B; [|discriminate].
  apply bytes_eqb_eq in B. subst n. intros _. vm_compute. auto.
Qed.
