(* Proofs/ParseSpans.v — C18: in every tree the parser returns, at every depth, a node that is built from
   operands spans them: binary operators of all five levels, prefix runs, postfix chains, the outer
   operands of a conditional, match arms and map entries; a node without an operator has its operand's span.
   The parser computes every such span with [surrounding] (Proofs/ParseTp.v, [built]), which contains both of
   its arguments. *)
From Coq Require Import ZArith List Bool Lia.
From Rscel Require Import Base.Prims Base.F64 Base.Text Model.Value Model.Funcs Model.Lexer Model.Ast Model.Parser
     Proofs.Spans Proofs.ParseCases Proofs.ParseTp.
Import ListNotations.
Open Scope Z_scope.

Section Sp.
  Variable rec : expr -> Prop.

  Definition sp_init (i : objinit) : Prop :=
    match i with ObjInit r k v => within (expr_range k) r /\ within (expr_range v) r /\ rec k /\ rec v end.
  Definition sp_primary (p : primary) : Prop :=
    match p with
    | PrParens _ e => rec e
    | PrList _ es => Forall rec es
    | PrObj _ inits => Forall sp_init inits
    | _ => True
    end.
  Definition sp_mprime (m : mprime) : Prop :=
    match m with MPCall _ args => Forall rec args | MPIndex _ e => rec e | MPAccess r ir _ => within ir r end.
  Definition sp_member (m : member) : Prop :=
    match m with Member r p ms => within (primary_range p) r /\ Forall (fun x => within (mprime_range x) r) ms /\
                                  sp_primary p /\ Forall sp_mprime ms end.
  Definition sp_unary (u : unary) : Prop :=
    match u with
    | UnMember r m => r = member_range m /\ sp_member m
    | UnNot r ops m | UnNeg r ops m => within (oplist_range ops) r /\ within (member_range m) r /\ sp_member m
    end.
  Fixpoint sp_mult (e : mult) : Prop :=
    match e with MulUn r u => r = unary_range u /\ sp_unary u
               | MulBin r l _ b => within (mult_range l) r /\ within (unary_range b) r /\ sp_mult l /\ sp_unary b end.
  Fixpoint sp_addn (e : addn) : Prop :=
    match e with AddUn r u => r = mult_range u /\ sp_mult u
               | AddBin r l _ b => within (addn_range l) r /\ within (mult_range b) r /\ sp_addn l /\ sp_mult b end.
  Fixpoint sp_rel (e : rel) : Prop :=
    match e with RelUn r u => r = addn_range u /\ sp_addn u
               | RelBin r l _ b => within (rel_range l) r /\ within (addn_range b) r /\ sp_rel l /\ sp_addn b end.
  Fixpoint sp_cand (e : cand) : Prop :=
    match e with AndUn r u => r = rel_range u /\ sp_rel u
               | AndBin r l b => within (cand_range l) r /\ within (rel_range b) r /\ sp_cand l /\ sp_rel b end.
  Fixpoint sp_cor (e : cor) : Prop :=
    match e with OrUn r u => r = cand_range u /\ sp_cand u
               | OrBin r l b => within (cor_range l) r /\ within (cand_range b) r /\ sp_cor l /\ sp_cand b end.
  Definition sp_pattern (p : mpat) : Prop := match p with MPatCmp _ _ _ o => sp_cor o | _ => True end.
  Definition sp_case (c : mcase) : Prop :=
    match c with MCase r p arm => within (mpat_range p) r /\ within (expr_range arm) r /\ sp_pattern p /\ rec arm end.
  Definition sp_expr_body (e : expr) : Prop :=
    match e with
    | EUnary r c => r = cor_range c /\ sp_cor c
    | ETernary r c t f => within (cor_range c) r /\ within (expr_range f) r /\ sp_cor c /\ sp_cor t /\ rec f
    | EMatch _ c cases => rec c /\ Forall sp_case cases
    end.
End Sp.

Fixpoint sp (fuel : nat) (e : expr) : Prop := match fuel with O => True | S f => sp_expr_body (sp f) e end.

Lemma within_refl r : within r r.
Proof. split; apply loc_le_refl. Qed.

Section BuiltSp.
  Variables R R' : expr -> Prop.
  Hypothesis HR : forall e, R e -> R' e.

  (* [auto] below finds these two in the context *)
  Let sur_l a b : within a (surrounding a b) := proj1 (surrounding_contains a b).
  Let sur_r a b : within b (surrounding a b) := proj2 (surrounding_contains a b).

  Lemma built_sp_primary p : built_primary R p -> sp_primary R' p.
  Proof.
    destruct p; cbn; auto; apply Forall_impl; auto. intros [ri k v] (-> & Hk & Hv). cbn. auto.
  Qed.
  Lemma built_sp_member m : built_member R m -> sp_member R' m.
  Proof.
    destruct m as [r p ms]. intros (-> & Hp & Hms). destruct (member_span_grows ms (primary_range p)) as [A B].
    split; [exact A|]. split; [exact B|]. split; [apply built_sp_primary; exact Hp|].
    revert Hms. apply Forall_impl. intros [r' ir name|r' args|r' e]; cbn; auto; [intros [dl ->]; auto|apply Forall_impl; auto].
  Qed.
  Lemma built_sp_unary u : built_unary R u -> sp_unary R' u.
  Proof. destruct u; intros [-> H]; cbn; auto using built_sp_member. Qed.
  Lemma built_sp_mult e : built_mult R e -> sp_mult R' e.
  Proof. induction e; cbn; [intros (-> & Hl & Hb)|intros [-> Hu]]; auto 6 using built_sp_unary. Qed.
  Lemma built_sp_addn e : built_addn R e -> sp_addn R' e.
  Proof. induction e; cbn; [intros (-> & Hl & Hb)|intros [-> Hu]]; auto 6 using built_sp_mult. Qed.
  Lemma built_sp_rel e : built_rel R e -> sp_rel R' e.
  Proof. induction e; cbn; [intros (-> & Hl & Hb)|intros [-> Hu]]; auto 6 using built_sp_addn. Qed.
  Lemma built_sp_cand e : built_cand R e -> sp_cand R' e.
  Proof. induction e; cbn; [intros (-> & Hl & Hb)|intros [-> Hu]]; auto 6 using built_sp_rel. Qed.
  Lemma built_sp_cor e : built_cor R e -> sp_cor R' e.
  Proof. induction e; cbn; [intros (-> & Hl & Hb)|intros [-> Hu]]; auto 6 using built_sp_cand. Qed.
  Lemma built_sp_expr_body e : built_expr_body R e -> sp_expr_body R' e.
  Proof.
    destruct e as [r c t f|r c cases|r c]; cbn.
    - intros (-> & Hc & Ht & Hf). auto 8 using built_sp_cor.
    - intros [Hc Hcs]. split; [auto|]. revert Hcs. apply Forall_impl. intros [r' p arm] (-> & Hp & Ha). cbn.
      split; [auto|]. split; [auto|]. split; [|auto]. destruct p; cbn in *; auto using built_sp_cor.
    - intros [-> Hc]. auto using built_sp_cor.
  Qed.
End BuiltSp.

Lemma built_sp : forall fuel e, built fuel e -> sp fuel e.
Proof. induction fuel as [|f IH]; intros e H; [exact I|]. exact (built_sp_expr_body _ _ IH e H). Qed.

(** Every tree the parser returns, at every depth: a node built from operands spans them. *)
Theorem parser_spans_nest : forall fuel depth t e t', p_expr_at fuel depth t = POk e t' -> sp fuel e.
Proof. intros fuel depth t e t' H. apply built_sp. eapply parser_built; eauto. Qed.

Corollary program_spans_nest fuel src e t : parse_program fuel src = POk e t -> sp fuel e.
Proof.
  unfold parse_program. intros H. apply pbind_ok in H. destruct H as (e0 & t0 & Pe & H).
  apply pbind_ok in H. destruct H as ([x|] & t1 & _ & H); [discriminate|]. injection H as <- _.
  eapply parser_spans_nest; exact Pe.
Qed.
