(* Proofs/Blocks.v — composition of code blocks in the VM model.  The working notion is [yields]: what
   a stretch of code does wherever it stands inside a larger block.  Closed blocks yield what they do
   alone ([embed]); stretches compose by concatenation and by forward jumps over a stretch, so the
   block theorems for the lazy operators (C05) never mention a program counter or a fuel count. *)
From Coq Require Import ZArith List Bool Lia Arith.
From Rscel Require Import Base.Prims Base.F64 Base.Text Model.Value Model.Ops Model.Dispatch Model.Funcs
     Model.Interp Spec.WfCode Proofs.VM.
Import ListNotations.
Open Scope Z_scope.

Ltac len := repeat first [rewrite app_length | progress cbn [length]]; lia.

Section Blocks.
  Variable rs : runner.
  Variable E : env.
  Variable d : nat.

  Notation loop' := (loop rs).

  Lemma loop_S fuel c pc st lg :
    loop' (S fuel) E d c pc st lg =
    match nth_error c pc with
    | None => (ROk st, lg)
    | Some i =>
        match step rs E d i st lg with
        | (ROk (None, st'), lg') => loop' fuel E d c (S pc) st' lg'
        | (ROk (Some dd, st'), lg') =>
            match jump_target (S pc) dd (length c) with
            | Some pc' => loop' fuel E d c pc' st' lg'
            | None => (RErr ERuntime, lg')
            end
        | (RErr e, lg') => (RErr e, lg')
        | (RPanic, lg') => (RPanic, lg')
        | (RFuel, lg') => (RFuel, lg')
        | (RUnmod, lg') => (RUnmod, lg')
        end
    end.
  Proof.
    cbn [loop]. destruct (nth_error c pc) as [i|]; [|reflexivity].
    unfold mbind. destruct (step rs E d i st lg) as [[[j st']| | | |] lg']; try reflexivity.
    destruct j as [dd|]; [|reflexivity].
    destruct (jump_target (S pc) dd (length c)); reflexivity.
  Qed.

  Lemma loop_mono : forall fuel c pc st lg r lg',
    loop' fuel E d c pc st lg = (r, lg') -> r <> RFuel ->
    forall extra, loop' (fuel + extra) E d c pc st lg = (r, lg').
  Proof.
    induction fuel as [|f IH]; intros c pc st lg r lg' H Hr extra.
    - cbn in H. inv H. congruence.
    - replace (S f + extra)%nat with (S (f + extra)) by lia. rewrite loop_S in *.
      destruct (nth_error c pc) as [i|]; [|exact H].
      destruct (step rs E d i st lg) as [[[j st1]| | | |] lg1]; try exact H.
      destruct j as [dd|].
      + destruct (jump_target (S pc) dd (length c)); [|exact H]. apply IH; assumption.
      + apply IH; assumption.
  Qed.

  Definition closed (c : code) : Prop :=
    forall pc i, nth_error c pc = Some i ->
      match i with
      | IJmp dd | IJmpCond _ dd => 0 <= dd /\ (S pc + Z.to_nat dd <= length c)%nat
      | _ => True
      end.

  Lemma nth_error_embed {A} (p c q : list A) pc x :
    nth_error c pc = Some x -> nth_error (p ++ c ++ q) (length p + pc) = Some x.
  Proof.
    intros H. rewrite nth_error_app2 by lia. replace (length p + pc - length p)%nat with pc by lia.
    rewrite nth_error_app1; [exact H|]. apply nth_error_Some. congruence.
  Qed.

  Lemma embed c p q : closed c ->
    forall fuel pc st lg r,
      (pc <= length c)%nat -> loop' fuel E d c pc st lg = r -> fst r <> RFuel ->
      exists f, forall extra,
        loop' (f + extra) E d (p ++ c ++ q) (length p + pc) st lg =
        match r with
        | (ROk st', lg') => loop' extra E d (p ++ c ++ q) (length p + length c) st' lg'
        | _ => r
        end.
  Proof.
    intros Hc. induction fuel as [|f IH]; intros pc st lg r Hpc H Hr.
    - subst r. contradiction Hr. reflexivity.
    - rewrite loop_S in H. destruct (nth_error c pc) as [i|] eqn:Hn.
      2:{ subst r. apply nth_error_None in Hn. replace pc with (length c) by lia. exists O. reflexivity. }
      pose proof (nth_error_embed p c q pc i Hn) as Hn'.
      assert (Hlt : (pc < length c)%nat) by (apply nth_error_Some; congruence).
      destruct (step rs E d i st lg) as [[[j st1]| | | |] lg1] eqn:Hs.
      2-5: subst r; exists 1%nat; intros extra; cbn [Nat.add]; rewrite loop_S, Hn', Hs; reflexivity.
      (* where the step leads, in the block and in the larger block *)
      assert (Hnext : exists pc1, (pc1 <= length c)%nat /\
                loop' f E d c pc1 st1 lg1 = r /\
                forall g, loop' (S g) E d (p ++ c ++ q) (length p + pc) st lg =
                          loop' g E d (p ++ c ++ q) (length p + pc1) st1 lg1).
      { destruct j as [dd|].
        - pose proof (step_height rs E d i st lg (Some dd) st1 lg1 Hs) as (_ & _ & Hj).
          assert (Hrange : 0 <= dd /\ (S pc + Z.to_nat dd <= length c)%nat).
          { specialize (Hc pc i Hn). destruct i; cbn in Hj; try contradiction; subst; exact Hc. }
          destruct Hrange as [H0 H1]. rewrite (jump_target_inside pc dd (length c) H0 H1) in H.
          exists (S pc + Z.to_nat dd)%nat. repeat split; [exact H1|exact H|]. intros g.
          rewrite loop_S, Hn', Hs, jump_target_inside by (rewrite ?app_length; lia).
          f_equal. lia.
        - exists (S pc). repeat split; [exact Hlt|exact H|]. intros g.
          rewrite loop_S, Hn', Hs. f_equal. lia. }
      destruct Hnext as (pc1 & Hle & Hrun & Hstep).
      destruct (IH pc1 st1 lg1 r Hle Hrun Hr) as [f1 Hf1].
      exists (S f1). intros extra. cbn [Nat.add]. rewrite Hstep. apply Hf1.
  Qed.

  (** [yields l st lg r]: from stack [st] and log [lg] the stretch [l], wherever it stands, either runs
      to its end with the stack and log of [r], or ends the whole run with the outcome [r]. *)
  Definition yields (l : code) (st : stack) (lg : log) (r : res stack * log) : Prop :=
    forall p q, exists f, forall extra,
      loop' (f + extra) E d (p ++ l ++ q) (length p) st lg =
      match r with
      | (ROk st', lg') => loop' extra E d (p ++ l ++ q) (length p + length l) st' lg'
      | _ => r
      end.

  Lemma closed_yields c fuel st lg r :
    closed c -> loop' fuel E d c O st lg = r -> fst r <> RFuel -> yields c st lg r.
  Proof.
    intros Hc H Hr p q. destruct (embed c p q Hc fuel O st lg r (Nat.le_0_l _) H Hr) as [f Hf].
    exists f. rewrite Nat.add_0_r in Hf. exact Hf.
  Qed.

  Lemma yields_run c st lg r : yields c st lg r -> exists f, loop' f E d c O st lg = r.
  Proof.
    intros H. destruct (H [] []) as [f Hf]. cbn [app length Nat.add] in Hf. rewrite app_nil_r in Hf.
    exists (f + 1)%nat. rewrite Hf. destruct r as [[st'| | | |] lg']; try reflexivity.
    rewrite loop_S. replace (nth_error c (length c)) with (@None instr); [reflexivity|].
    symmetry. apply nth_error_None. lia.
  Qed.

  Lemma yields_nil st lg : yields [] st lg (ROk st, lg).
  Proof. intros p q. exists O. intros extra. cbn [length]. rewrite Nat.add_0_r. reflexivity. Qed.

  Lemma yields_app l1 l2 st lg st1 lg1 r :
    yields l1 st lg (ROk st1, lg1) -> yields l2 st1 lg1 r -> yields (l1 ++ l2) st lg r.
  Proof.
    intros H1 H2 p q. destruct (H1 p (l2 ++ q)) as [f1 E1]. destruct (H2 (p ++ l1) q) as [f2 E2].
    rewrite <- !app_assoc in *. rewrite app_length in E2.
    exists (f1 + f2)%nat. intros extra. rewrite <- Nat.add_assoc, E1, E2.
    destruct r as [[st2| | | |] lg2]; try reflexivity. rewrite app_length, Nat.add_assoc. reflexivity.
  Qed.

  Lemma yields_cons i l st lg st1 lg1 r :
    step rs E d i st lg = (ROk (None, st1), lg1) -> yields l st1 lg1 r -> yields (i :: l) st lg r.
  Proof.
    intros Hs. apply (yields_app [i] l). intros p q. exists 1%nat. intros extra.
    cbn [Nat.add app length]. rewrite loop_S, nth_error_mid, Hs, Nat.add_1_r. reflexivity.
  Qed.

  Lemma yields_skip i dd l l' t st lg st1 lg1 r :
    step rs E d i st lg = (ROk (Some dd, st1), lg1) -> t = l ++ l' -> dd = Z.of_nat (length l) ->
    yields l' st1 lg1 r -> yields (i :: t) st lg r.
  Proof.
    intros Hs -> ->. apply (yields_app (i :: l) l'). intros p q. exists 1%nat. intros extra.
    cbn [Nat.add app]. rewrite loop_S, nth_error_mid, Hs, jump_target_inside by len.
    f_equal. cbn [length]. lia.
  Qed.

  Lemma yields_skip_all i dd t st lg st1 lg1 :
    step rs E d i st lg = (ROk (Some dd, st1), lg1) -> dd = Z.of_nat (length t) ->
    yields (i :: t) st lg (ROk st1, lg1).
  Proof.
    intros Hs Hd. apply (yields_skip i dd t [] t _ _ _ _ _ Hs); [symmetry; apply app_nil_r|exact Hd|apply yields_nil].
  Qed.

  Lemma yields_err l l' st lg e lg' : yields l st lg (RErr e, lg') -> yields (l ++ l') st lg (RErr e, lg').
  Proof.
    intros H p q. destruct (H p (l' ++ q)) as [f Hf]. exists f. rewrite <- app_assoc. exact Hf.
  Qed.

  (** "Expression code": from any stack, the block pushes one stack value / fails. *)
  Definition pushes (c : code) (lg : log) (sv : sval) (lg' : log) : Prop :=
    closed c /\ forall st, exists f, loop' f E d c O st lg = (ROk (sv :: st), lg').
  Definition fails (c : code) (lg : log) (e : cel_error) (lg' : log) : Prop :=
    closed c /\ forall st, exists f, loop' f E d c O st lg = (RErr e, lg').

  Lemma pushes_yields c lg sv lg' st : pushes c lg sv lg' -> yields c st lg (ROk (sv :: st), lg').
  Proof. intros [Hc Hp]. destruct (Hp st) as [f Hf]. apply (closed_yields c f); [exact Hc|exact Hf|discriminate]. Qed.

  Lemma fails_yields c lg e lg' st : fails c lg e lg' -> yields c st lg (RErr e, lg').
  Proof. intros [Hc Hp]. destruct (Hp st) as [f Hf]. apply (closed_yields c f); [exact Hc|exact Hf|discriminate]. Qed.

  (** How the consumer of a stack value sees it ([pop] resolves identifiers). *)
  Definition resolves (sv : sval) (lg : log) (v : value) (lg' : log) : Prop :=
    forall st, pop_val rs E d (sv :: st) lg = (ROk (v, st), lg').

  Definition plainv (v : value) : Prop := match v with VIdent _ => False | _ => True end.

  Lemma resolves_plain v lg : plainv v -> resolves (SVal v) lg v lg.
  Proof. intros H st. destruct v; try reflexivity. destruct H. Qed.

  (** The value TEST leaves for an operand value. *)
  Definition tested (v : value) : value := if is_err v then v else VBool (is_truthy v).

  Lemma tested_cases v : (exists b, tested v = VBool b) \/ (exists e, tested v = VErr e).
  Proof. unfold tested. destruct (is_err v) eqn:Ee; [right; destruct v; try discriminate; eauto|left; eauto]. Qed.

  Lemma tested_plain v : plainv (tested v).
  Proof. destruct (tested_cases v) as [[b ->]|[e ->]]; exact I. Qed.

  Lemma tested_truthy v : is_err v = false -> is_truthy v = true -> tested v = VBool true.
  Proof. intros He Ht. unfold tested. rewrite He, Ht. reflexivity. Qed.

  Lemma tested_falsy v : is_err v = true \/ is_truthy v = false ->
    tested v = (if is_err v then v else VBool false) /\ ((exists e, tested v = VErr e) \/ tested v = VBool false).
  Proof.
    intros H. unfold tested. destruct (is_err v) eqn:Ee.
    - split; [reflexivity|]. left. destruct v; try discriminate. eauto.
    - destruct H as [H|H]; [discriminate|]. rewrite H. auto.
  Qed.

  Lemma step_pop sv st lg v lg' : resolves sv lg v lg' -> step rs E d IPop (sv :: st) lg = (ROk (None, st), lg').
  Proof. intros H. cbn [step]. unfold mbind. rewrite (H st). reflexivity. Qed.
  Lemma step_dup sv st lg v lg' : resolves sv lg v lg' ->
    step rs E d IDup (sv :: st) lg = (ROk (None, SVal v :: SVal v :: st), lg').
  Proof. intros H. cbn [step]. unfold mbind. rewrite (H st). reflexivity. Qed.
  Lemma step_pop_plain v st lg : plainv v -> step rs E d IPop (SVal v :: st) lg = (ROk (None, st), lg).
  Proof. intros H. apply (step_pop _ _ _ v), resolves_plain, H. Qed.
  Lemma step_dup_plain v st lg : plainv v ->
    step rs E d IDup (SVal v :: st) lg = (ROk (None, SVal v :: SVal v :: st), lg).
  Proof. intros H. apply step_dup, resolves_plain, H. Qed.
  Lemma step_not_plain v st lg : plainv v ->
    step rs E d INot (SVal v :: st) lg = (ROk (None, SVal (not_ v) :: st), lg).
  Proof. intros H. cbn [step]. unfold un, mbind. rewrite (resolves_plain v lg H st). reflexivity. Qed.
  Lemma step_test st lg sv v lg' : resolves sv lg v lg' ->
    step rs E d ITest (sv :: st) lg = (ROk (None, SVal (tested v) :: st), lg').
  Proof. intros H. cbn [step]. unfold mbind. rewrite (H st). unfold tested. destruct (is_err v); reflexivity. Qed.
  Lemma step_jmpcond_bool w dist b st lg :
    step rs E d (IJmpCond w dist) (SVal (VBool b) :: st) lg =
    (ROk (if Bool.eqb b w then Some dist else None, st), lg).
  Proof. reflexivity. Qed.
  Lemma step_jmpcond_err w dist e st lg :
    step rs E d (IJmpCond w dist) (SVal (VErr e) :: st) lg =
    (ROk (if w then None else Some dist, st), lg).
  Proof. reflexivity. Qed.
  Lemma step_jmp dist st lg : step rs E d (IJmp dist) st lg = (ROk (Some dist, st), lg).
  Proof. reflexivity. Qed.
  Lemma bin_resolves f svb lg vb lg' a st : resolves svb lg vb lg' -> plainv a ->
    bin rs E d f (svb :: SVal a :: st) lg = (ROk (None, SVal (f a vb) :: st), lg').
  Proof.
    intros Hb Ha. unfold bin. unfold mbind at 1. rewrite (Hb (SVal a :: st)).
    unfold mbind. rewrite (resolves_plain a lg' Ha st). reflexivity.
  Qed.

  Definition jumps (w : bool) (t : value) : bool :=
    match t with VBool b => Bool.eqb b w | VErr _ => negb w | _ => false end.

  Lemma test_dup w dd l l' t sv lg va lg1 st r :
    resolves sv lg va lg1 -> t = l ++ l' -> dd = Z.of_nat (length l) ->
    yields (if jumps w (tested va) then l' else t) (SVal (tested va) :: st) lg1 r ->
    yields (ITest :: IDup :: IJmpCond w dd :: t) (sv :: st) lg r.
  Proof.
    intros Hr Ht Hd H.
    apply yields_cons with (1 := step_test st lg sv va lg1 Hr).
    apply yields_cons with (1 := step_dup_plain _ _ lg1 (tested_plain va)).
    revert H. destruct (tested_cases va) as [[b ->]|[e ->]]; cbn [jumps].
    - generalize (step_jmpcond_bool w dd b (SVal (VBool b) :: st) lg1).
      destruct (Bool.eqb b w); intros Hs H;
        [exact (yields_skip _ _ l l' t _ _ _ _ r Hs Ht Hd H)|exact (yields_cons _ _ _ _ _ _ r Hs H)].
    - generalize (step_jmpcond_err w dd e (SVal (VErr e) :: st) lg1).
      destruct w; intros Hs H;
        [exact (yields_cons _ _ _ _ _ _ r Hs H)|exact (yields_skip _ _ l l' t _ _ _ _ r Hs Ht Hd H)].
  Qed.

  Definition or_code (ca cb : code) : code :=
    ca ++ [ITest; IDup; IJmpCond true (Z.of_nat (length cb) + 1)] ++ cb ++ [IOr].

  Definition and_code (ca cb : code) : code :=
    ca ++ [ITest; IDup; IJmpCond false (Z.of_nat (length cb) + 1)] ++ cb ++ [IAnd].

  Definition tern_code (cc ct cf : code) : code :=
    cc ++ [ITest; IDup; IJmpCond false (Z.of_nat (length ct) + 2); IPop] ++ ct ++
    [IJmp (Z.of_nat (length cf) + 4); IDup; INot; IJmpCond false (Z.of_nat (length cf) + 1); IPop] ++ cf.

  Section Tern.
    Variables cc ct cf : code.

    Lemma tern_cond lg sva lg1 va lg2 st r :
      pushes cc lg sva lg1 -> resolves sva lg1 va lg2 ->
      yields (if jumps false (tested va)
              then [IDup; INot; IJmpCond false (Z.of_nat (length cf) + 1); IPop] ++ cf
              else IPop :: ct ++ [IJmp (Z.of_nat (length cf) + 4); IDup; INot;
                                  IJmpCond false (Z.of_nat (length cf) + 1); IPop] ++ cf)
             (SVal (tested va) :: st) lg2 r ->
      yields (tern_code cc ct cf) st lg r.
    Proof.
      intros Hc Hrc H. unfold tern_code. apply yields_app with (1 := pushes_yields cc lg sva lg1 st Hc).
      cbn [app]. eapply (test_dup false _ (IPop :: ct ++ [IJmp (Z.of_nat (length cf) + 4)]) _ _ _ _ _ _ _ _ Hrc);
        [cbn [app]; rewrite <- app_assoc; reflexivity|len|exact H].
    Qed.

    (** condition truthy: exactly the then-branch runs; nothing depends on the else code *)
    Theorem tern_true lg sva lg1 va lg2 svt lg3 :
      pushes cc lg sva lg1 -> resolves sva lg1 va lg2 ->
      is_err va = false -> is_truthy va = true ->
      pushes ct lg2 svt lg3 ->
      forall st, exists f, loop' f E d (tern_code cc ct cf) O st lg = (ROk (svt :: st), lg3).
    Proof.
      intros Hc Hrc Hne Htr Ht st. apply yields_run, (tern_cond lg sva lg1 va lg2 st _ Hc Hrc).
      rewrite (tested_truthy va Hne Htr). cbn [jumps Bool.eqb].
      apply yields_cons with (1 := step_pop_plain (VBool true) st lg2 I).
      apply yields_app with (1 := pushes_yields ct lg2 svt lg3 st Ht).
      eapply yields_skip_all; [apply step_jmp|len].
    Qed.

    Lemma tern_else_false st lg r :
      yields cf st lg r ->
      yields ([IDup; INot; IJmpCond false (Z.of_nat (length cf) + 1); IPop] ++ cf) (SVal (VBool false) :: st) lg r.
    Proof.
      intros H. cbn [app].
      apply yields_cons with (1 := step_dup_plain (VBool false) st lg I).
      apply yields_cons with (1 := step_not_plain (VBool false) _ lg I).
      apply yields_cons with (1 := step_jmpcond_bool false _ true _ lg).
      apply yields_cons with (1 := step_pop_plain (VBool false) st lg I). exact H.
    Qed.

    (** condition falsy: exactly the else-branch runs; nothing depends on the then code *)
    Theorem tern_false lg sva lg1 va lg2 svf lg3 :
      pushes cc lg sva lg1 -> resolves sva lg1 va lg2 ->
      is_err va = false -> is_truthy va = false ->
      pushes cf lg2 svf lg3 ->
      forall st, exists f, loop' f E d (tern_code cc ct cf) O st lg = (ROk (svf :: st), lg3).
    Proof.
      intros Hc Hrc Hne Htr Hf st. apply yields_run, (tern_cond lg sva lg1 va lg2 st _ Hc Hrc).
      unfold tested. rewrite Hne, Htr. cbn [jumps Bool.eqb].
      apply tern_else_false, pushes_yields, Hf.
    Qed.

    (** condition fails: the failure is the result and neither branch runs *)
    Theorem tern_cond_fails lg sva lg1 e lg2 :
      pushes cc lg sva lg1 -> resolves sva lg1 (VErr e) lg2 ->
      forall st, exists f, loop' f E d (tern_code cc ct cf) O st lg = (ROk (SVal (VErr e) :: st), lg2).
    Proof.
      intros Hc Hrc st. apply yields_run, (tern_cond lg sva lg1 (VErr e) lg2 st _ Hc Hrc).
      cbn [tested is_err jumps negb app].
      apply yields_cons with (1 := step_dup_plain (VErr e) st lg2 I).
      apply yields_cons with (1 := step_not_plain (VErr e) _ lg2 I).
      eapply yields_skip_all; [exact (step_jmpcond_err false _ e _ lg2)|len].
    Qed.
  End Tern.
End Blocks.
