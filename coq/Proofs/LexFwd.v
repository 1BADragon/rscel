(* Proofs/LexFwd.v — C18: the scanner only moves forward, so tokens are reported with well-ordered spans
   that increase and do not overlap, each starting after the white space that precedes it. *)
From Coq Require Import ZArith List Bool Lia.
From Rscel Require Import Base.Prims Base.F64 Base.Text Model.Value Model.Lexer Proofs.Spans.
Import ListNotations.
Open Scope Z_scope.

Definition fwd (s s' : scanner) : Prop :=
  exists pre, sc_rest s = pre ++ sc_rest s' /\ sc_loc s' = loc_after (sc_loc s) pre.

Lemma fwd_refl s : fwd s s.
Proof. exists []. split; reflexivity. Qed.

Lemma loc_after_app l a b : loc_after l (a ++ b) = loc_after (loc_after l a) b.
Proof. revert l. induction a as [|c a IH]; intros l; [reflexivity|]. cbn [app loc_after]. apply IH. Qed.

Lemma fwd_trans a b c : fwd a b -> fwd b c -> fwd a c.
Proof.
  intros (p & R1 & L1) (q & R2 & L2). exists (p ++ q). split.
  - rewrite R1, R2, app_assoc. reflexivity.
  - rewrite L2, L1, loc_after_app. reflexivity.
Qed.

Lemma next_fwd s o s1 : sc_next s = (o, s1) -> fwd s s1.
Proof.
  unfold sc_next. destruct (sc_rest s) as [|c r] eqn:E; intros H; injection H as <- <-; [apply fwd_refl|].
  exists [c]. split; [cbn; destruct (c =? 10); exact E|]. unfold sc_loc. cbn [loc_after]. destruct (c =? 10); reflexivity.
Qed.
Lemma next_fwd' s : fwd s (snd (sc_next s)).
Proof. destruct (sc_next s) as [o s1] eqn:N. exact (next_fwd _ _ _ N). Qed.

Lemma fwd_le s s' : fwd s s' -> loc_le (sc_loc s) (sc_loc s').
Proof. intros (p & _ & L). rewrite L. apply loc_after_forward. Qed.


Ltac fwd_steps :=
  repeat match goal with
         | H : sc_next ?a = (_, ?b) |- fwd ?a _ => eapply fwd_trans; [exact (next_fwd _ _ _ H)|]
         | H : fwd ?a ?b |- fwd ?a _ => first [exact H | eapply fwd_trans; [exact H|]]
         | |- fwd ?a ?a => apply fwd_refl
         | |- fwd ?a (snd (sc_next ?a)) => apply next_fwd'
         end.

Lemma take_ident_fwd : forall fuel s acc w s', take_ident fuel s acc = (w, s') -> fwd s s'.
Proof.
  induction fuel as [|f IH]; intros s acc w s' H; cbn [take_ident] in H; [injection H as _ <-; apply fwd_refl|].
  destruct (sc_peek s) as [c|]; [|injection H as _ <-; apply fwd_refl].
  destruct (is_ident_char c); [|injection H as _ <-; apply fwd_refl].
  eapply fwd_trans; [apply next_fwd'|eapply IH; eauto].
Qed.

Lemma lex_ident_fwd first s t s' : lex_ident first s = LOk t s' -> fwd s s'.
Proof. unfold lex_ident. destruct (take_ident _ s [first]) as [w s1] eqn:T. intros H. injection H as _ <-. eapply take_ident_fwd; eauto. Qed.

Lemma hex_digits_fwd : forall n s acc v s', hex_digits n s acc = LOk v s' -> fwd s s'.
Proof.
  induction n as [|n IH]; intros s acc v s' H; cbn [hex_digits] in H; [injection H as _ <-; apply fwd_refl|].
  destruct (sc_next s) as [[c|] s1] eqn:N; [|discriminate]. destruct (is_hex c); [|discriminate].
  eapply fwd_trans; [exact (next_fwd _ _ _ N)|eapply IH; eauto].
Qed.
Lemma extract_hex_fwd n s v s' : extract_hex n s = LOk v s' -> fwd s s'.
Proof.
  unfold extract_hex. destruct (hex_digits n s 0) as [v0 s0| |] eqn:H0; try discriminate.
  destruct (is_scalar v0); [|discriminate]. intros H. injection H as _ <-. eapply hex_digits_fwd; eauto.
Qed.
Lemma octal3_fwd d0 s v s' : octal3 d0 s = LOk v s' -> fwd s s'.
Proof.
  unfold octal3. destruct (sc_next s) as [[d1|] s1] eqn:N1; [|discriminate]. destruct (sc_next s1) as [[d2|] s2] eqn:N2; [|discriminate].
  destruct (oct_val d0), (oct_val d1), (oct_val d2); try discriminate. intros H. injection H as _ <-. fwd_steps.
Qed.

Lemma lex_fexpr_fwd : forall fuel s depth acc r s', lex_fexpr fuel s depth acc = LOk r s' -> fwd s s'.
Proof.
  induction fuel as [|f IH]; intros s depth acc r s' H; cbn [lex_fexpr] in H; [discriminate|].
  destruct (sc_next s) as [[c|] s1] eqn:N; [|discriminate].
  destruct (c =? 125); [destruct (depth - 1 >? 0); [|injection H as _ <-; fwd_steps]|destruct (c =? 123)];
    (eapply fwd_trans; [exact (next_fwd _ _ _ N)|eapply IH; eauto]).
Qed.

Lemma lex_bytes_fwd : forall fuel q s acc t s', lex_bytes fuel q s acc = LOk t s' -> fwd s s'.
Proof.
  induction fuel as [|f IH]; intros q s acc t s' H; cbn [lex_bytes] in H; [discriminate|].
  destruct (sc_next s) as [[c|] s1] eqn:N; [|discriminate].
  destruct (c =? q); [injection H as _ <-; fwd_steps|].
  destruct (c =? 92); [|eapply fwd_trans; [exact (next_fwd _ _ _ N)|eapply IH; eauto]].
  destruct (sc_next s1) as [[e|] s2] eqn:N2; [|discriminate].
  assert (F2 : fwd s s2) by fwd_steps.
  repeat match type of H with
         | (if ?c then _ else _) = _ => destruct c
         end;
    try solve [eapply fwd_trans; [exact F2|eapply IH; eassumption]].
  - destruct (extract_hex 2 s2) as [v s3| |] eqn:X; try discriminate. apply extract_hex_fwd in X.
    eapply fwd_trans; [exact F2|]. eapply fwd_trans; [exact X|eapply IH; eauto].
  - destruct (octal3 e s2) as [v s3| |] eqn:X; try discriminate. apply octal3_fwd in X. destruct (v <=? 255); [|discriminate].
    eapply fwd_trans; [exact F2|]. eapply fwd_trans; [exact X|eapply IH; eauto].
Qed.

Lemma lex_string_fwd : forall fuel q raw fmt s work segs t s', lex_string fuel q raw fmt s work segs = LOk t s' -> fwd s s'.
Proof.
  induction fuel as [|f IH]; intros q raw fmt s work segs t s' H; cbn [lex_string] in H; [discriminate|].
  destruct (sc_next s) as [[c|] s1] eqn:N; [|discriminate].
  destruct (c =? q).
  { destruct segs; injection H as _ <-; fwd_steps. }
  destruct ((c =? 92) && negb raw).
  { destruct (sc_next s1) as [[e|] s2] eqn:N2; [|discriminate].
    assert (F2 : fwd s s2) by fwd_steps.
    repeat match type of H with
           | (if ?c then _ else _) = _ => destruct c
           end;
      try solve [eapply fwd_trans; [exact F2|eapply IH; eassumption]];
      try (destruct (extract_hex _ s2) as [v s3| |] eqn:X; try discriminate; apply extract_hex_fwd in X;
           eapply fwd_trans; [exact F2|]; eapply fwd_trans; [exact X|eapply IH; eassumption]).
    destruct (octal3 e s2) as [v s3| |] eqn:X; try discriminate. apply octal3_fwd in X. destruct (is_scalar v); [|discriminate].
    eapply fwd_trans; [exact F2|]. eapply fwd_trans; [exact X|eapply IH; eassumption]. }
  destruct ((c =? 123) && fmt).
  { destruct (sc_next s1) as [[e|] s2] eqn:N2; [|discriminate]. assert (F2 : fwd s s2) by fwd_steps.
    destruct (e =? 123); [eapply fwd_trans; [exact F2|eapply IH; eassumption]|].
    destruct (e =? 125); [discriminate|].
    destruct (lex_fexpr f s2 1 [e]) as [body s3| |] eqn:X; try discriminate. apply lex_fexpr_fwd in X.
    eapply fwd_trans; [exact F2|]. eapply fwd_trans; [exact X|eapply IH; eassumption]. }
  destruct ((c =? 125) && fmt).
  { destruct (sc_next s1) as [[e|] s2] eqn:N2; [|discriminate]. assert (F2 : fwd s s2) by fwd_steps.
    destruct (e =? 125); [|discriminate]. eapply fwd_trans; [exact F2|eapply IH; eassumption]. }
  eapply fwd_trans; [exact (next_fwd _ _ _ N)|eapply IH; eassumption].
Qed.

Lemma collect_number_fwd : forall fuel s st st' s', collect_number fuel s st = (st', s') -> fwd s s'.
Proof.
  induction fuel as [|f IH]; intros s st st' s' H; cbn [collect_number] in H; [injection H as _ <-; apply fwd_refl|].
  destruct (sc_peek s) as [c|]; [|injection H as _ <-; apply fwd_refl].
  pose proof (next_fwd' s) as F1.
  repeat match type of H with
         | (if ?c then _ else _) = _ => destruct c
         | (match sc_peek ?x with _ => _ end) = _ => destruct (sc_peek x)
         end;
    try (injection H as _ <-; first [apply fwd_refl|exact F1]);
    try solve [eapply fwd_trans; [exact F1|eapply IH; eassumption]];
    try solve [eapply fwd_trans; [exact F1|]; eapply fwd_trans; [apply next_fwd'|eapply IH; eassumption]].
Qed.

Lemma lex_number_fwd first fl s t s' : lex_number first fl s = LOk t s' -> fwd s s'.
Proof.
  unfold lex_number. destruct (collect_number _ s _) as [st s1] eqn:C. apply collect_number_fwd in C. intros H.
  repeat match type of H with
         | (if ?c then _ else _) = _ => destruct c
         | (match ?x with _ => _ end) = _ => destruct x
         end; try discriminate; injection H as _ <-; exact C.
Qed.

Lemma skip_ws_fwd : forall fuel s start oc s1, skip_ws fuel s = (start, oc, s1) ->
  fwd s s1 /\ loc_le (sc_loc s) start /\ loc_le start (sc_loc s1).
Proof.
  induction fuel as [|f IH]; intros s start oc s1 H; cbn [skip_ws] in H.
  - injection H as <- _ <-. split; [apply fwd_refl|split; apply loc_le_refl].
  - destruct (sc_next s) as [[c|] s2] eqn:N.
    + destruct ((c =? 32) || (c =? 9) || (c =? 10)).
      * destruct (IH _ _ _ _ H) as (F & L1 & L2). pose proof (next_fwd _ _ _ N) as F0.
        split; [eapply fwd_trans; eauto|]. split; [|exact L2]. eapply loc_le_trans; [apply fwd_le; exact F0|exact L1].
      * injection H as <- _ <-. pose proof (next_fwd _ _ _ N) as F0. split; [exact F0|]. split; [apply loc_le_refl|apply fwd_le; exact F0].
    + injection H as <- _ <-. pose proof (next_fwd _ _ _ N) as F0. split; [exact F0|]. split; [apply loc_le_refl|apply fwd_le; exact F0].
Qed.

Theorem collect_token_span s o s2 : collect_token s = LOk o s2 ->
  fwd s s2 /\
  match o with
  | Some t => loc_le (sc_loc s) (r_start (t_loc t)) /\ well_ordered (t_loc t) /\ r_end (t_loc t) = sc_loc s2
  | None => True
  end.
Proof.
  unfold collect_token. destruct (skip_ws _ s) as [[start oc] s1] eqn:W. destruct (skip_ws_fwd _ _ _ _ _ W) as (F1 & L1 & L2).
  destruct oc as [c|]; [|intros H; injection H as <- <-; split; [exact F1|exact I]].
  match goal with |- (match ?r with _ => _ end) = _ -> _ => destruct r as [tk s3| |] eqn:R end; try discriminate.
  intros H. injection H as <- <-. cbn [t_loc r_start r_end].
  assert (F3 : fwd s1 s3).
  { clear -R. revert R.
    repeat match goal with
           | |- (if ?c then _ else _) = _ -> _ => destruct c
           | |- (match sc_peek ?x with _ => _ end) = _ -> _ => destruct (sc_peek x)
           end;
      intros R; try discriminate R;
      try (injection R as _ <-; first [apply fwd_refl|apply next_fwd']);
      first [ eapply lex_number_fwd; eassumption | eapply lex_ident_fwd; eassumption
            | eapply lex_string_fwd; eassumption
            | (eapply fwd_trans; [apply next_fwd'|]; first [eapply lex_bytes_fwd; eassumption|eapply lex_string_fwd; eassumption]) ]. }
  split; [eapply fwd_trans; eauto|]. split; [exact L1|]. split; [|reflexivity].
  unfold well_ordered. cbn [r_start r_end]. eapply loc_le_trans; [exact L2|apply fwd_le; exact F3].
Qed.

Lemma collect_token_fwd s o s1 : collect_token s = LOk o s1 -> fwd s s1.
Proof. intros H. exact (proj1 (collect_token_span _ _ _ H)). Qed.

(** tokens one after the other between two positions: each span is well ordered, starts at or after the end
    of the one before (so spans increase and do not overlap), and the last ends at or before [hi] *)
Fixpoint chain (lo : loc) (toks : list tokloc) (hi : loc) : Prop :=
  match toks with
  | [] => loc_le lo hi
  | t :: r => loc_le lo (r_start (t_loc t)) /\ well_ordered (t_loc t) /\ chain (r_end (t_loc t)) r hi
  end.

Lemma chain_app : forall a lo mid b hi, chain lo a mid -> chain mid b hi -> chain lo (a ++ b) hi.
Proof.
  induction a as [|t a IH]; intros lo mid b hi Ha Hb; cbn [app chain] in *.
  - destruct b as [|u b]; cbn [chain] in *; [eapply loc_le_trans; eauto|].
    destruct Hb as (B1 & B2 & B3). split; [eapply loc_le_trans; eauto|]. split; assumption.
  - destruct Ha as (A1 & A2 & A3). split; [exact A1|]. split; [exact A2|]. eapply IH; eauto.
Qed.

Lemma lex_all_chain : forall fuel s acc toks s' lo, chain lo (rev acc) (sc_loc s) ->
  lex_all fuel s acc = LOk toks s' -> chain lo toks (sc_loc s').
Proof.
  induction fuel as [|f IH]; intros s acc toks s' lo Hc H; cbn [lex_all] in H; [discriminate|].
  destruct (collect_token s) as [[t|] s1| |] eqn:C; try discriminate.
  - destruct (collect_token_span _ _ _ C) as (F & L1 & W & E).
    eapply IH; [|exact H]. cbn [rev]. eapply chain_app; [exact Hc|]. cbn [chain]. split; [exact L1|]. split; [exact W|]. rewrite E. apply loc_le_refl.
  - injection H as <- <-. rewrite <- (app_nil_r (rev acc)). eapply chain_app; [exact Hc|]. cbn [chain]. apply fwd_le.
    exact (collect_token_fwd _ _ _ C).
Qed.

(** Tokens are reported with increasing, non-overlapping, well-ordered spans, from the start of the source on. *)
Theorem tokens_in_order src toks s' : lex src = LOk toks s' -> chain (mkLoc 0 0) toks (sc_loc s').
Proof. unfold lex. apply lex_all_chain. cbn. apply loc_le_refl. Qed.

Lemma lex_all_fwd : forall fuel s acc toks s', lex_all fuel s acc = LOk toks s' -> fwd s s'.
Proof.
  induction fuel as [|f IH]; intros s acc toks s' H; cbn [lex_all] in H; [discriminate|].
  destruct (collect_token s) as [[t|] s1| |] eqn:C; try discriminate.
  - eapply fwd_trans; [eapply collect_token_fwd; eauto|eapply IH; eauto].
  - injection H as _ <-. eapply collect_token_fwd; eauto.
Qed.

(** ... and all of them lie inside the source: the position after the last token is the one reached by reading a
    prefix of the source text *)
Theorem tokens_inside_source src toks s' : lex src = LOk toks s' ->
  chain (mkLoc 0 0) toks (sc_loc s') /\ exists pre, src = pre ++ sc_rest s' /\ sc_loc s' = loc_after (mkLoc 0 0) pre.
Proof.
  intros H. split; [eapply tokens_in_order; eauto|]. unfold lex in H. destruct (lex_all_fwd _ _ _ _ _ H) as (pre & R & L).
  exists pre. cbn in R, L. split; assumption.
Qed.
