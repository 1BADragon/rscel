(* Proofs/Macros.v — C07: the comprehension macros equal their defining folds,
   visit the elements in order, stop at the deciding or failing element, run
   every body under the caller's environment extended by the loop variable,
   and use one depth level for the whole loop. *)
From Coq Require Import ZArith List Bool Lia.
From Rscel Require Import Base.Prims Base.F64 Base.Text Model.Value Model.Ops Model.Dispatch Model.Funcs Model.Interp.
Import ListNotations.
Import Coq.Strings.String.StringSyntax.
Open Scope Z_scope.

Section Loops.
  Variable rs : runner.
  Variable E : env.
  Variable dcur : nat.
  Variable x : bytes.
  Variable body : code.

  (** One body evaluation: the body code run under E[x := v], at the loop's depth. *)
  Definition B (v : value) : M (value + value) := run_body rs dcur (bind_param E x v) body.

  (** [trace l lg bs lg']: the bodies of the elements of [l], evaluated in
      order starting from log [lg], all succeed with results [bs]; the log ends as [lg']. *)
  Inductive trace : list value -> log -> list value -> log -> Prop :=
  | tr_nil lg : trace [] lg [] lg
  | tr_cons v r lg b lg1 bs lg2 :
      B v lg = (ROk (inr b), lg1) -> trace r lg1 bs lg2 -> trace (v :: r) lg (b :: bs) lg2.

  Definition truthy_all (bs : list value) : bool := forallb is_truthy bs.
  Definition falsy_all (bs : list value) : bool := forallb (fun b => negb (is_truthy b)) bs.

  (** Each loop runs through a prefix whose bodies neither decide nor fail, and goes on with the rest
      from the log the prefix leaves; every statement below is that prefix followed by one step. *)
  Lemma all_loop_app pre rest lg bs lg1 :
    trace pre lg bs lg1 -> truthy_all bs = true ->
    all_loop rs E dcur x body (pre ++ rest) lg = all_loop rs E dcur x body rest lg1.
  Proof.
    induction 1 as [lg|v r lg b lg1 bs lg2 Hb Ht IH]; intros Hall; [reflexivity|].
    cbn in Hall. apply andb_true_iff in Hall. destruct Hall as [Hb1 Hr].
    cbn [app all_loop]. unfold mbind. fold (B v). rewrite Hb, Hb1. apply IH, Hr.
  Qed.

  Theorem all_every_truthy l lg bs lg' :
    trace l lg bs lg' -> truthy_all bs = true ->
    all_loop rs E dcur x body l lg = (ROk (VBool true), lg').
  Proof. intros Ht Hall. rewrite <- (app_nil_r l), (all_loop_app l [] lg bs lg' Ht Hall). reflexivity. Qed.

  (** stops at the first falsy element: nothing after it is evaluated ([post] is arbitrary) *)
  Theorem all_stops_at_first_falsy pre v post lg bs lg1 b lg2 :
    trace pre lg bs lg1 -> truthy_all bs = true ->
    B v lg1 = (ROk (inr b), lg2) -> is_truthy b = false ->
    all_loop rs E dcur x body (pre ++ v :: post) lg = (ROk (VBool false), lg2).
  Proof.
    intros Ht Hall Hb Hf. rewrite (all_loop_app pre _ lg bs lg1 Ht Hall).
    cbn [all_loop]. unfold mbind. fold (B v). rewrite Hb, Hf. reflexivity.
  Qed.

  (** ... and at the first element whose body fails, which makes the macro fail *)
  Theorem all_stops_at_first_failure pre v post lg bs lg1 e lg2 :
    trace pre lg bs lg1 -> truthy_all bs = true ->
    B v lg1 = (ROk (inl e), lg2) ->
    all_loop rs E dcur x body (pre ++ v :: post) lg = (ROk e, lg2).
  Proof.
    intros Ht Hall Hb. rewrite (all_loop_app pre _ lg bs lg1 Ht Hall).
    cbn [all_loop]. unfold mbind. fold (B v). rewrite Hb. reflexivity.
  Qed.

  Lemma exists_loop_app pre rest lg bs lg1 :
    trace pre lg bs lg1 -> falsy_all bs = true ->
    exists_loop rs E dcur x body (pre ++ rest) lg = exists_loop rs E dcur x body rest lg1.
  Proof.
    induction 1 as [lg|v r lg b lg1 bs lg2 Hb Ht IH]; intros Hall; [reflexivity|].
    cbn in Hall. apply andb_true_iff in Hall. destruct Hall as [Hb1 Hr]. apply negb_true_iff in Hb1.
    cbn [app exists_loop]. unfold mbind. fold (B v). rewrite Hb, Hb1. apply IH, Hr.
  Qed.

  Theorem exists_none_truthy l lg bs lg' :
    trace l lg bs lg' -> falsy_all bs = true ->
    exists_loop rs E dcur x body l lg = (ROk (VBool false), lg').
  Proof. intros Ht Hall. rewrite <- (app_nil_r l), (exists_loop_app l [] lg bs lg' Ht Hall). reflexivity. Qed.

  Theorem exists_stops_at_first_truthy pre v post lg bs lg1 b lg2 :
    trace pre lg bs lg1 -> falsy_all bs = true ->
    B v lg1 = (ROk (inr b), lg2) -> is_truthy b = true ->
    exists_loop rs E dcur x body (pre ++ v :: post) lg = (ROk (VBool true), lg2).
  Proof.
    intros Ht Hall Hb Hf. rewrite (exists_loop_app pre _ lg bs lg1 Ht Hall).
    cbn [exists_loop]. unfold mbind. fold (B v). rewrite Hb, Hf. reflexivity.
  Qed.

  Definition count_truthy (bs : list value) : Z := zlen (filter is_truthy bs).

  Lemma count_truthy_cons b bs : count_truthy (b :: bs) = (if is_truthy b then 1 else 0) + count_truthy bs.
  Proof. unfold count_truthy, zlen. cbn [filter]. destruct (is_truthy b); cbn [length]; lia. Qed.

  Lemma count_truthy_nonneg bs : 0 <= count_truthy bs.
  Proof. apply Zle_0_nat. Qed.

  Lemma exists_one_loop_app pre rest : forall lg bs lg1 k,
    trace pre lg bs lg1 -> k + count_truthy bs <= 1 ->
    exists_one_loop rs E dcur x body (pre ++ rest) k lg =
    exists_one_loop rs E dcur x body rest (k + count_truthy bs) lg1.
  Proof.
    intros lg bs lg1 k Ht. revert k.
    induction Ht as [lg|v r lg b lg1 bs lg2 Hb Ht IH]; intros k Hc.
    - rewrite Z.add_0_r. reflexivity.
    - rewrite count_truthy_cons in *. pose proof (count_truthy_nonneg bs).
      cbn [app exists_one_loop]. unfold mbind. fold (B v). rewrite Hb.
      destruct (is_truthy b).
      + destruct (Z.ltb_spec 1 (k + 1)); [lia|]. rewrite (IH (k + 1)) by lia. f_equal; lia.
      + rewrite (IH k) by lia. f_equal; lia.
  Qed.

  Theorem exists_one_counts l : forall lg bs lg' k,
    trace l lg bs lg' -> 0 <= k -> k + count_truthy bs <= 1 ->
    exists_one_loop rs E dcur x body l k lg = (ROk (VBool (k + count_truthy bs =? 1)), lg').
  Proof.
    intros lg bs lg' k Ht _ Hc. rewrite <- (app_nil_r l), (exists_one_loop_app l [] lg bs lg' k Ht Hc).
    reflexivity.
  Qed.

  (** a second truthy element decides the answer (false) at once *)
  Theorem exists_one_stops_at_second pre v post lg bs lg1 b lg2 :
    trace pre lg bs lg1 -> count_truthy bs = 1 ->
    B v lg1 = (ROk (inr b), lg2) -> is_truthy b = true ->
    exists_one_loop rs E dcur x body (pre ++ v :: post) 0 lg = (ROk (VBool false), lg2).
  Proof.
    intros Ht Hc Hb Htr. rewrite (exists_one_loop_app pre _ lg bs lg1 0 Ht) by lia. rewrite Hc.
    cbn [exists_one_loop]. unfold mbind. fold (B v). rewrite Hb, Htr. reflexivity.
  Qed.

  Fixpoint keep (l bs : list value) : list value :=
    match l, bs with
    | v :: r, b :: bs' => if is_truthy b then v :: keep r bs' else keep r bs'
    | _, _ => []
    end.

  Theorem filter_keeps_truthy l : forall lg bs lg' acc,
    trace l lg bs lg' ->
    filter_loop rs E dcur x body l acc lg = (ROk (VList (rev acc ++ keep l bs)), lg').
  Proof.
    intros lg bs lg' acc Ht. revert acc.
    induction Ht as [lg|v r lg b lg1 bs lg2 Hb Ht IH]; intros acc; cbn [filter_loop keep].
    - rewrite app_nil_r. reflexivity.
    - unfold mbind. fold (B v). rewrite Hb, IH.
      destruct (is_truthy b); cbn [rev]; rewrite <- ?app_assoc; reflexivity.
  Qed.

  Theorem map2_collects l : forall lg bs lg' acc,
    trace l lg bs lg' ->
    map_loop rs E dcur x None body l acc lg = (ROk (VList (rev acc ++ bs)), lg').
  Proof.
    intros lg bs lg' acc Ht. revert acc.
    induction Ht as [lg|v r lg b lg1 bs lg2 Hb Ht IH]; intros acc; cbn [map_loop].
    - rewrite app_nil_r. reflexivity.
    - unfold mbind. fold (B v). rewrite Hb, IH. cbn [rev]. rewrite <- app_assoc. reflexivity.
  Qed.

  (** a failing body makes filter fail at that element *)
  Theorem filter_stops_at_first_failure pre v post lg bs lg1 e lg2 acc :
    trace pre lg bs lg1 -> B v lg1 = (ROk (inl e), lg2) ->
    filter_loop rs E dcur x body (pre ++ v :: post) acc lg = (ROk e, lg2).
  Proof.
    intros Ht. revert acc. induction Ht as [lg|u r lg c lg1' bs lg2' Hc Ht IH]; intros acc Hb; cbn [app filter_loop].
    - unfold mbind. fold (B v). rewrite Hb. reflexivity.
    - unfold mbind. fold (B u). rewrite Hc. apply IH. exact Hb.
  Qed.
End Loops.

(** reduce: threads the accumulator from the seed through the step, left to right.
    The step body runs under E[next := element][cur := accumulator]. *)
Section Reduce.
  Variable rs : runner.
  Variable E : env.
  Variable dcur : nat.
  Variables cur next : bytes.
  Variable body : code.

  Definition S_ (acc v : value) : M (value + value) :=
    run_body rs dcur (bind_param (bind_param E next v) cur acc) body.

  (** every accumulator along the way stays within reduce's nesting bound *)
  Inductive rtrace : list value -> value -> log -> value -> log -> Prop :=
  | rt_nil a lg : rtrace [] a lg a lg
  | rt_cons v r a lg a1 lg1 a2 lg2 :
      S_ a v lg = (ROk (inr a1), lg1) -> nested_too_deep a1 = false ->
      rtrace r a1 lg1 a2 lg2 -> rtrace (v :: r) a lg a2 lg2.

  Lemma reduce_loop_app pre rest seed lg a lg1 :
    rtrace pre seed lg a lg1 ->
    reduce_loop rs E dcur cur next body (pre ++ rest) seed lg = reduce_loop rs E dcur cur next body rest a lg1.
  Proof.
    induction 1 as [a0 lg0|v r a0 lg0 a1 lg1 a2 lg2 Hs Hd Ht IH]; [reflexivity|].
    cbn [app reduce_loop]. unfold mbind. fold (S_ a0 v). rewrite Hs, Hd. exact IH.
  Qed.

  Theorem reduce_threads_accumulator l seed lg a lg' :
    rtrace l seed lg a lg' -> reduce_loop rs E dcur cur next body l seed lg = (ROk a, lg').
  Proof. intros Ht. rewrite <- (app_nil_r l), (reduce_loop_app l [] seed lg a lg' Ht). reflexivity. Qed.

  Theorem reduce_stops_at_first_failure pre v post seed lg a lg1 e lg2 :
    rtrace pre seed lg a lg1 -> S_ a v lg1 = (ROk (inl e), lg2) ->
    reduce_loop rs E dcur cur next body (pre ++ v :: post) seed lg = (ROk e, lg2).
  Proof.
    intros Ht Hb. rewrite (reduce_loop_app pre _ seed lg a lg1 Ht).
    cbn [reduce_loop]. unfold mbind. fold (S_ a v). rewrite Hb. reflexivity.
  Qed.

  (** an accumulator nested more than 1000 levels deep ends the loop with a value error: no value
      deeper than that is ever bound, cloned or compared by a later step *)
  Theorem reduce_stops_at_deep_accumulator pre v post seed lg a lg1 a1 lg2 :
    rtrace pre seed lg a lg1 -> S_ a v lg1 = (ROk (inr a1), lg2) -> nested_too_deep a1 = true ->
    reduce_loop rs E dcur cur next body (pre ++ v :: post) seed lg = (ROk (VErr EValue), lg2).
  Proof.
    intros Ht Hb Hdeep. rewrite (reduce_loop_app pre _ seed lg a lg1 Ht).
    cbn [reduce_loop]. unfold mbind. fold (S_ a v). rewrite Hb, Hdeep. reflexivity.
  Qed.
End Reduce.

(** Scope: the body environment is the caller's with only the loop variable
    (re)bound: it shadows an outer binding of the same name, every other
    binding, stored program and function stays visible, the clock and the
    macro set are the caller's. *)
Theorem macro_scope : forall E x v,
  let E' := bind_param E x v in
  map_get (e_params E') x = map_get (map_insert (e_params E) x v) x /\
  e_params E' = map_insert (e_params E) x v /\
  e_progs E' = e_progs E /\ e_ufuncs E' = e_ufuncs E /\ e_runtime E' = e_runtime E /\
  e_now E' = e_now E /\ e_bound E' = e_bound E.
Proof. intros. repeat split. Qed.

(** Maps: filter and map range over the keys in the order of the canonical
    (sorted) representation. *)
Theorem map_macros_visit_sorted_keys : forall rs E d m a0 a1,
  call_macro_impl rs E d #"filter" (VMap m) [a0; a1] =
    with_ident rs E a0 (fun x => filter_loop rs E d x a1 (map (fun kv => VString (fst kv)) m) []) /\
  call_macro_impl rs E d #"map" (VMap m) [a0; a1] =
    with_ident rs E a0 (fun x => map_loop rs E d x None a1 (map (fun kv => VString (fst kv)) m) []).
Proof. intros. split; reflexivity. Qed.

(** Loop iterations do not consume the depth budget: every body of the loop
    runs through [rs] at the same depth [dcur] (by definition of [B] above);
    lists of any length are therefore handled at one level. *)
Theorem macro_body_depth_constant : forall rs E d x body v lg,
  B rs E d x body v lg =
  match rs (bind_param E x v) body true d lg with
  | (ROk r, lg') => (ROk (inr r), lg')
  | (RErr e, lg') => (ROk (inl (VErr e)), lg')
  | (o, lg') => (mcast o, lg')
  end.
Proof. intros. reflexivity. Qed.
