(* Proofs/LitProgram.v — C13: from source text to value.  A source consisting of one literal token compiles to a
   program that pushes that literal's value; then, for each kind of literal, the texts that are one such token. *)
From Coq Require Import ZArith List Bool Lia.
From Rscel Require Import Model.Ops Model.Dispatch Model.Funcs Model.Interp.
From Rscel Require Import Base.Prims Base.F64 Base.Text Model.Value Model.Lexer Model.Ast Model.Parser Model.Compile.
From Rscel Require Import Proofs.Literals Proofs.StrLit Proofs.Conv Proofs.Resolve.
Import ListNotations.
Open Scope Z_scope.

Definition lit_of_token (t : token) : option lit :=
  match t with
  | TIntLit v => if v <=? i64_max then Some (LInt v) else None
  | TUIntLit v => Some (LUInt v)
  | TFloatLit f => Some (LFloat f)
  | TStringLit s => Some (LStr s)
  | TByteStringLit b => Some (LBytes b)
  | TBoolLit b => Some (LBool b)
  | TNull => Some LNull
  | _ => None
  end.

Definition lit_val (l : lit) : option value :=
  match l with
  | LNull => Some VNull | LInt z => Some (VInt z) | LUInt z => Some (VUInt z) | LFloat f => Some (VFloat f)
  | LStr s => Some (VString (utf8_encode s)) | LBytes b => Some (VBytes b) | LBool b => Some (VBool b)
  | LFStr _ => None
  end.

Lemma collect_at_end s : sc_rest s = [] -> collect_token s = LOk None s.
Proof. intros H. unfold collect_token. rewrite H. cbn [length skip_ws]. unfold sc_next. rewrite H. reflexivity. Qed.

Section OneToken.
  Variable rec_expr : P expr.
  Variable rec_src : chars -> pres unit.
  Variable src : chars.
  Variable tk : token.
  Variable rng : range.
  Variable send : scanner.
  Variable l : lit.
  Hypothesis T1 : collect_token (mkScan src 0 0) = LOk (Some (mkTok tk rng)) send.
  Hypothesis He : sc_rest send = [].
  Hypothesis Hl : lit_of_token tk = Some l.

  Let tok := mkTok tk rng.
  Let T_init := tz_init src.
  Let T_peeked := mkTz send (Some tok) false.
  Let E0 := mkTz send None false.
  Let E1 := mkTz send None true.

  Lemma peek_init : peek T_init = POk (Some tok) T_peeked.
  Proof. unfold peek, tz_peek, T_init, tz_init. cbn [tz_cur]. unfold tz_collect. cbn [tz_eof tz_scan]. rewrite T1. reflexivity. Qed.

  Lemma peek_peeked : peek T_peeked = POk (Some tok) T_peeked.
  Proof. reflexivity. Qed.

  Lemma next_peeked : next T_peeked = POk (Some tok) E0.
  Proof. reflexivity. Qed.

  Lemma peek_E0 : peek E0 = POk None E1.
  Proof. unfold peek, tz_peek, E0. cbn [tz_cur]. unfold tz_collect. cbn [tz_eof tz_scan]. rewrite (collect_at_end send He). reflexivity. Qed.

  Lemma peek_E1 : peek E1 = POk None E1.
  Proof. reflexivity. Qed.

  Lemma lloop_E0 {A B O} n opof (rhs : P B) (mk : A -> O -> B -> A) acc :
    lloop (S n) opof rhs mk acc E0 = POk acc E1.
  Proof. cbn [lloop]. unfold pbind. rewrite peek_E0. reflexivity. Qed.

  Lemma lloop_E1 {A B O} n opof (rhs : P B) (mk : A -> O -> B -> A) acc :
    lloop (S n) opof rhs mk acc E1 = POk acc E1.
  Proof. cbn [lloop]. unfold pbind. rewrite peek_E1. reflexivity. Qed.

  Lemma primary_lit : p_primary rec_expr rec_src T_peeked = POk (PrLit rng l) E0.
  Proof.
    unfold p_primary, pbind. rewrite next_peeked. unfold tok.
    destruct tk; cbn in Hl; try discriminate Hl; try (injection Hl as <-; reflexivity).
    destruct (v <=? i64_max); [injection Hl as <-; reflexivity|discriminate Hl].
  Qed.

  Lemma member_lit : p_member rec_expr rec_src T_peeked = POk (Member rng (PrLit rng l) []) E1.
  Proof.
    unfold p_member, pbind at 1. rewrite primary_lit. unfold loop_fuel. cbn [p_member_primes]. unfold pbind.
    rewrite peek_E0. reflexivity.
  Qed.

  Lemma not_prefix : match tk with TNot | TMinus => False | _ => True end.
  Proof. destruct tk; cbn in Hl; try discriminate Hl; exact I. Qed.

  Section From.
    Variable T : tokenizer.
    Hypothesis HT : peek T = POk (Some tok) T_peeked.

    Lemma unary_lit : p_unary rec_expr rec_src T = POk (UnMember rng (Member rng (PrLit rng l) [])) E1.
    Proof.
      unfold p_unary, pbind at 1. rewrite HT. unfold tok_of, option_map, tok. cbn [t_tok].
      pose proof not_prefix as NP.
      assert (G : (let! m := p_member rec_expr rec_src in pret (UnMember (member_range m) m)) T_peeked =
                  POk (UnMember rng (Member rng (PrLit rng l) [])) E1).
      { unfold pbind. rewrite member_lit. reflexivity. }
      destruct tk; try contradiction; exact G.
    Qed.

    Lemma mult_lit : p_mult rec_expr rec_src T = POk (MulUn rng (UnMember rng (Member rng (PrLit rng l) []))) E1.
    Proof. unfold p_mult, pbind. rewrite unary_lit. unfold loop_fuel. rewrite lloop_E1. reflexivity. Qed.

    Lemma addn_lit : p_addn rec_expr rec_src T = POk (AddUn rng (MulUn rng (UnMember rng (Member rng (PrLit rng l) [])))) E1.
    Proof. unfold p_addn, pbind. rewrite mult_lit. unfold loop_fuel. rewrite lloop_E1. reflexivity. Qed.

    Lemma rel_lit : p_rel rec_expr rec_src T =
      POk (RelUn rng (AddUn rng (MulUn rng (UnMember rng (Member rng (PrLit rng l) []))))) E1.
    Proof. unfold p_rel, pbind. rewrite addn_lit. unfold loop_fuel. rewrite lloop_E1. reflexivity. Qed.

    Lemma cand_lit : p_cand rec_expr rec_src T =
      POk (AndUn rng (RelUn rng (AddUn rng (MulUn rng (UnMember rng (Member rng (PrLit rng l) [])))))) E1.
    Proof. unfold p_cand, pbind. rewrite rel_lit. unfold loop_fuel. rewrite lloop_E1. reflexivity. Qed.

    Lemma cor_lit : p_cor rec_expr rec_src T =
      POk (OrUn rng (AndUn rng (RelUn rng (AddUn rng (MulUn rng (UnMember rng (Member rng (PrLit rng l) []))))))) E1.
    Proof. unfold p_cor, pbind. rewrite cand_lit. unfold loop_fuel. rewrite lloop_E1. reflexivity. Qed.
  End From.

  Definition lit_tree : expr :=
    EUnary rng (OrUn rng (AndUn rng (RelUn rng (AddUn rng (MulUn rng (UnMember rng (Member rng (PrLit rng l) []))))))).

  Lemma not_match : match tk with TMatch => False | _ => True end.
  Proof. destruct tk; cbn in Hl; try discriminate Hl; exact I. Qed.

  Lemma expr_body_lit : p_expr_body rec_expr rec_src T_init = POk lit_tree E1.
  Proof.
    unfold p_expr_body, pbind at 1. rewrite peek_init. unfold tok.
    pose proof not_match as NM.
    assert (G : (let! l0 := p_cor rec_expr rec_src in
                 let! q := peek in
                 if is_tok q TQuestion then
                   let! _ := next in
                   let! tc := p_cor rec_expr rec_src in
                   let! col := next in
                   if negb (is_tok col TColon) then fail_here
                   else let! fc := rec_expr in pret (ETernary (surrounding (cor_range l0) (expr_range fc)) l0 tc fc)
                 else pret (EUnary (cor_range l0) l0)) T_peeked = POk lit_tree E1).
    { unfold pbind at 1. rewrite (cor_lit T_peeked peek_peeked). unfold pbind at 1. rewrite peek_E1. reflexivity. }
    destruct tk; try contradiction; exact G.
  Qed.

End OneToken.

Theorem parse_single_literal f src tk rng send l :
  collect_token (mkScan src 0 0) = LOk (Some (mkTok tk rng)) send -> sc_rest send = [] -> lit_of_token tk = Some l ->
  parse_program (S f) src = POk (lit_tree rng l) (mkTz send None true).
Proof.
  intros T1 He Hl. unfold parse_program, p_expr. cbn [p_expr_at]. change (32 <=? 0) with false. cbv iota.
  unfold pbind at 1. rewrite (expr_body_lit _ _ src tk rng send l T1 He Hl).
  unfold pbind. rewrite (peek_E1 send). reflexivity.
Qed.

(** a source that is one literal token compiles to the one-instruction program that pushes the literal's value *)
Theorem compile_single_literal f src tk rng send l v :
  collect_token (mkScan src 0 0) = LOk (Some (mkTok tk rng)) send -> sc_rest send = [] -> lit_of_token tk = Some l ->
  lit_val l = Some v ->
  compile_source (S f) src = COk (mkProgram [IPush v] [] (lit_tree rng l)) 2%nat.
Proof.
  intros T1 He Hl Hv. unfold compile_source. rewrite (parse_single_literal f src tk rng send l T1 He Hl).
  cbn [c_expr]. unfold lit_tree, c_expr_body, c_cor, c_cand, c_rel, c_addn, c_mult, c_unary, c_member, c_primary.
  unfold c_cor_chain, c_cand, c_cand_chain, cbind, new_label, cret.
  destruct l; cbn in Hv; try discriminate Hv; injection Hv as <-; reflexivity.
Qed.

Definition plain_lit (v : value) : Prop :=
  match v with
  | VNull | VInt _ | VUInt _ | VFloat _ | VString _ | VBytes _ | VBool _ => True
  | _ => False
  end.

Lemma lit_val_plain l v : lit_val l = Some v -> plain_lit v.
Proof. destruct l; cbn; intros H; try discriminate H; injection H as <-; exact I. Qed.

Theorem run_push f E v d lg : plain_lit v -> (d < 32)%nat ->
  run (S (S (S f))) E [IPush v] true d lg = (ROk v, lg).
Proof. intros Hv Hd. apply run_value; [exact Hd| |]; destruct v; try contradiction; reflexivity || exact I. Qed.

(** A source that is exactly one literal token, compiled and executed under any
    bindings, evaluates to the value of that literal. *)
Theorem single_token_evaluates src tk l v f g E d lg :
  single_token src tk -> lit_of_token tk = Some l -> lit_val l = Some v -> (d < 32)%nat ->
  exists p k, compile_source (S f) src = COk p k /\
              run (S (S (S g))) E (pr_code p) true d lg = (ROk v, lg).
Proof.
  intros (rng & send & T1 & He) Hl Hv Hd. eexists. eexists. split.
  - exact (compile_single_literal f src tk rng send l v T1 He Hl Hv).
  - exact (run_push g E v d lg (lit_val_plain l v Hv) Hd).
Qed.

Lemma int_token_lit n : 0 <= n <= i64_max -> in_u64 n = true /\ lit_of_token (TIntLit n) = Some (LInt n).
Proof.
  intros [Hn Hm]. split.
  - apply andb_true_iff. rewrite !Z.leb_le. unfold i64_max, u64_max in *. lia.
  - cbn. rewrite (proj2 (Z.leb_le n i64_max) Hm). reflexivity.
Qed.

Lemma collect_decimal n : 0 <= n -> in_u64 n = true ->
  collect_token (mkScan (dec_of_nonneg n) 0 0) =
  LOk (Some (mkTok (TIntLit n) (mkRange (mkLoc 0 0) (mkLoc 0 (Z.of_nat (length (dec_of_nonneg n)))))))
      (mkScan [] 0 (Z.of_nat (length (dec_of_nonneg n)))).
Proof.
  intros Hn Hr. destruct (dec_of_nonneg_digits n Hn) as [Hd _]. destruct (dec_head_digit n Hn) as (d & ds & E & Hd1).
  rewrite E in *. rewrite (collect_token_digit d ds 0 0 Hd1).
  rewrite (int_literal_denotes n d ds [] (mkScan ds 0 (0 + 1)) Hn E (eq_sym (app_nil_r ds)) I), Hr.
  rewrite (advance_no_newline ds (mkScan ds 0 (0 + 1)) [] (digits_no_newline ds (Forall_inv_tail Hd)) (eq_sym (app_nil_r ds))).
  cbn [wrap_tok sc_loc sc_line sc_col length]. replace (0 + 1 + Z.of_nat (length ds)) with (Z.of_nat (S (length ds))) by lia.
  reflexivity.
Qed.

(** The whole tokenizer on the decimal spelling of n: one integer token spanning the text. *)
Theorem lex_decimal_source n : 0 <= n -> in_u64 n = true ->
  exists s', lex (dec_of_nonneg n) =
    LOk [mkTok (TIntLit n) (mkRange (mkLoc 0 0) (mkLoc 0 (Z.of_nat (length (dec_of_nonneg n)))))] s'.
Proof.
  intros Hn Hr. destruct (dec_head_digit n Hn) as (d & ds & E & _). eexists. unfold lex.
  replace (length (dec_of_nonneg n)) with (S (length ds)) at 1 by (rewrite E; reflexivity).
  cbn [lex_all]. rewrite (collect_decimal n Hn Hr). reflexivity.
Qed.

Lemma single_decimal n : 0 <= n -> in_u64 n = true -> single_token (dec_of_nonneg n) (TIntLit n).
Proof. intros Hn Hr. eexists _, _. split; [exact (collect_decimal n Hn Hr)|reflexivity]. Qed.

(** From source text to value: a source that is one decimal integer literal,
    compiled and executed under any bindings, evaluates to that integer. *)
Theorem decimal_source_evaluates n f g E d lg : 0 <= n <= i64_max -> (d < 32)%nat ->
  exists p k, compile_source (S f) (dec_of_nonneg n) = COk p k /\
              run (S (S (S g))) E (pr_code p) true d lg = (ROk (VInt n), lg).
Proof.
  intros Hn. destruct (int_token_lit n Hn) as [Hr Hl].
  exact (single_token_evaluates _ _ _ _ f g E d lg (single_decimal n (proj1 Hn) Hr) Hl eq_refl).
Qed.

Lemma single_decimal_u n u : 0 <= n -> in_u64 n = true -> (u = 117 \/ u = 85) ->
  single_token (dec_of_nonneg n ++ [u]) (TUIntLit n).
Proof.
  intros Hn Hr Hu. destruct (dec_head_digit n Hn) as (d & ds & E & Hd1). rewrite E. cbn [app].
  eapply (single_token_wrap _ _ _ _ _ (collect_token_digit d (ds ++ [u]) 0 0 Hd1)).
  - rewrite (uint_literal_denotes n d ds u [] (mkScan (ds ++ [u]) 0 (0 + 1)) Hn E eq_refl Hu), Hr. reflexivity.
  - apply advance_rest. cbn [sc_rest]. rewrite app_nil_r. reflexivity.
Qed.

(** The decimal spelling followed by u or U evaluates to that unsigned integer. *)
Theorem uint_source_evaluates n u f g E d lg : 0 <= n <= u64_max -> (u = 117 \/ u = 85) -> (d < 32)%nat ->
  exists p k, compile_source (S f) (dec_of_nonneg n ++ [u]) = COk p k /\
              run (S (S (S g))) E (pr_code p) true d lg = (ROk (VUInt n), lg).
Proof.
  intros [Hn Hm] Hu.
  assert (Hr : in_u64 n = true) by (apply andb_true_iff; rewrite !Z.leb_le; lia).
  exact (single_token_evaluates _ _ _ _ f g E d lg (single_decimal_u n u Hn Hr Hu) eq_refl eq_refl).
Qed.

Lemma single_hex dch fuel n x : good_alphabet 16 dch -> (0 < fuel)%nat -> 0 <= n < 16 ^ Z.of_nat fuel ->
  (x = 120 \/ x = 88) -> in_u64 n = true -> single_token (48 :: x :: render 16 dch fuel n []) (TIntLit n).
Proof.
  intros Hg Hf Hn Hx Hr.
  destruct (hex_literal_denotes dch fuel n x [] (mkScan (x :: render 16 dch fuel n []) 0 (0 + 1)) Hg Hf Hn Hx
              ltac:(cbn; rewrite app_nil_r; reflexivity) I) as (s' & Hs' & L).
  rewrite Hr in L. exact (single_token_wrap _ _ _ _ _ (collect_token_digit 48 _ 0 0 eq_refl) L Hs').
Qed.

(** 0x / 0X followed by the hex spelling of n, compiled and executed under any bindings, evaluates to n *)
Theorem hex_source_evaluates dch fuel n x f g E d lg : good_alphabet 16 dch -> (0 < fuel)%nat -> 0 <= n < 16 ^ Z.of_nat fuel ->
  (x = 120 \/ x = 88) -> n <= i64_max -> (d < 32)%nat ->
  exists p k, compile_source (S f) (48 :: x :: render 16 dch fuel n []) = COk p k /\
              run (S (S (S g))) E (pr_code p) true d lg = (ROk (VInt n), lg).
Proof.
  intros Hg Hf Hn Hx Hm. destruct (int_token_lit n (conj (proj1 Hn) Hm)) as [Hr Hl].
  exact (single_token_evaluates _ _ _ _ f g E d lg (single_hex dch fuel n x Hg Hf Hn Hx Hr) Hl eq_refl).
Qed.

(** [collect_number] over  I . F  when what follows is not a sign (which the point would take with it) *)
Lemma collect_int_frac k s st ip fp rest : digits ip -> digits fp -> not_sign_head rest ->
  sc_rest s = ip ++ 46 :: fp ++ rest -> n_hex st = false -> n_float st = false -> n_exp st = false ->
  collect k s st = collect k (advance s (ip ++ 46 :: fp)) (push fp (put [46] true false (push ip st))).
Proof.
  intros Hi Hf Hr Hs Hh Hfl Hex.
  rewrite (collect_run k ip s st _ Hs) by (rewrite Hh; exact (digits_numch false ip Hi)).
  pose proof (advance_rest ip s _ Hs) as Hs1.
  rewrite (collect_point k _ _ _ Hs1 (digits_not_sign_head fp rest Hf Hr)) by assumption.
  rewrite (collect_run k fp _ _ rest (proj2 (sc_next_cons _ 46 _ Hs1))) by (cbn [put push n_hex]; rewrite Hh; exact (digits_numch false fp Hf)).
  change (46 :: fp) with ([46] ++ fp). rewrite !advance_app. reflexivity.
Qed.

Lemma int_frac_text st ip fp :
  rev (n_work (push fp (put [46] true false (push ip st)))) = rev (n_work st) ++ ip ++ 46 :: fp.
Proof. rewrite push_text, put_text, push_text, <- !app_assoc. reflexivity. Qed.

Lemma single_float d ip fp : digits (d :: ip) -> digits fp ->
  single_token (d :: ip ++ 46 :: fp) (TFloatLit (dec_to_f64 (dec_value ((d :: ip) ++ fp) 0) (- Z.of_nat (length fp)))).
Proof.
  intros Hi Hf. set (s1 := mkScan (ip ++ 46 :: fp) 0 (0 + 1)).
  assert (Hs : sc_rest s1 = ip ++ 46 :: fp ++ []) by (cbn; rewrite app_nil_r; reflexivity).
  pose proof (advance_rest (ip ++ 46 :: fp) s1 [] ltac:(rewrite <- app_assoc; exact Hs)) as He.
  refine (single_token_wrap _ _ _ _ _ (collect_token_digit d _ 0 0 (Forall_inv Hi)) _ He).
  unfold lex_number. fold s1. rewrite lex_number_collect.
  rewrite (collect_int_frac 0 s1 (mkNum (rev [d]) false false false false) ip fp [] (Forall_inv_tail Hi) Hf I Hs eq_refl eq_refl eq_refl), (collect_nil 0 _ _ He).
  cbv beta iota zeta. rewrite int_frac_text. cbn [push put n_work n_uns n_float rev app].
  change (d :: ip ++ 46 :: fp) with ((d :: ip) ++ 46 :: fp).
  rewrite (float_text_plain (d :: ip) fp Hi Hf) by (cbn [length]; lia). reflexivity.
Qed.

(** The program  I.F  evaluates, under every environment, to the double [dec_to_f64 digits (-|F|)], which
    Proofs/FloatLit.v shows is the correctly rounded (nearest, ties to even) binary64 value of the decimal
    number written, or infinity beyond the range. *)
Theorem float_source_evaluates d0 ip fp f g E d lg :
  Forall (fun c => is_digit c = true) (d0 :: ip) -> Forall (fun c => is_digit c = true) fp -> (d < 32)%nat ->
  exists p k, compile_source (S f) (d0 :: ip ++ 46 :: fp) = COk p k /\
              run (S (S (S g))) E (pr_code p) true d lg =
                (ROk (VFloat (dec_to_f64 (dec_value ((d0 :: ip) ++ fp) 0) (- Z.of_nat (length fp)))), lg).
Proof. intros Hi Hf. exact (single_token_evaluates _ _ _ _ f g E d lg (single_float d0 ip fp Hi Hf) eq_refl eq_refl). Qed.

Lemma single_float_exp d ip fp e sg ex :
  digits (d :: ip) -> digits fp -> digits ex -> ex <> [] ->
  (e = 101 \/ e = 69) -> (sg = [] \/ sg = [43] \/ sg = [45]) ->
  dec_value ex 0 <= Z.of_nat (length (d :: ip)) + Z.of_nat (length fp) + 2000 ->
  single_token (d :: ip ++ 46 :: fp ++ e :: sg ++ ex)
    (TFloatLit (dec_to_f64 (dec_value ((d :: ip) ++ fp) 0)
                  ((match sg with [45] => - dec_value ex 0 | _ => dec_value ex 0 end) - Z.of_nat (length fp)))).
Proof.
  intros Hi Hf Hx Hxn He Hsg Hcap.
  assert (Hns : not_sign_head (e :: sg ++ ex)) by (destruct He; subst e; reflexivity).
  set (s1 := mkScan (ip ++ 46 :: fp ++ e :: sg ++ ex) 0 (0 + 1)).
  set (st0 := mkNum (rev [d]) false false false false).
  assert (Hs : sc_rest s1 = ip ++ 46 :: fp ++ e :: sg ++ ex) by reflexivity.
  assert (Hs2 : sc_rest (advance s1 (ip ++ 46 :: fp)) = e :: sg ++ ex ++ []).
  { apply advance_rest. rewrite app_nil_r, <- app_assoc. exact Hs. }
  assert (Hs3 : sc_rest (advance (advance s1 (ip ++ 46 :: fp)) (e :: sg)) = ex ++ []).
  { apply advance_rest. exact Hs2. }
  pose proof (advance_rest ex _ [] Hs3) as Hend.
  refine (single_token_wrap _ _ _ _ _ (collect_token_digit d _ 0 0 (Forall_inv Hi)) _ Hend).
  unfold lex_number. fold s1 st0. rewrite lex_number_collect.
  rewrite (collect_int_frac 0 s1 st0 ip fp _ (Forall_inv_tail Hi) Hf Hns Hs eq_refl eq_refl eq_refl).
  rewrite (collect_exp 0 _ _ e sg (ex ++ []) Hs2 He Hsg (digits_not_sign_head ex [] Hx I)) by reflexivity.
  rewrite (collect_run _ ex _ _ [] Hs3) by exact (digits_numch false ex Hx). rewrite (collect_nil _ _ _ Hend).
  cbv beta iota zeta. rewrite push_text, put_text, int_frac_text, <- !app_assoc. unfold st0. cbn [push put n_work n_uns n_float rev app].
  change (d :: ip ++ 46 :: fp ++ e :: sg ++ ex) with ((d :: ip) ++ 46 :: fp ++ e :: sg ++ ex).
  rewrite (float_text_exp (d :: ip) fp ex sg e Hi Hf Hx); try assumption; [reflexivity|cbn [length]; lia|].
  destruct ex; [congruence|cbn [length]; lia].
Qed.

Theorem float_exp_source_evaluates d0 ip fp e sg ex f g E d lg :
  Forall (fun c => is_digit c = true) (d0 :: ip) -> Forall (fun c => is_digit c = true) fp ->
  Forall (fun c => is_digit c = true) ex -> ex <> [] ->
  (e = 101 \/ e = 69) -> (sg = [] \/ sg = [43] \/ sg = [45]) ->
  dec_value ex 0 <= Z.of_nat (length (d0 :: ip)) + Z.of_nat (length fp) + 2000 -> (d < 32)%nat ->
  exists p k, compile_source (S f) (d0 :: ip ++ 46 :: fp ++ e :: sg ++ ex) = COk p k /\
              run (S (S (S g))) E (pr_code p) true d lg =
                (ROk (VFloat (dec_to_f64 (dec_value ((d0 :: ip) ++ fp) 0)
                               ((match sg with [45] => - dec_value ex 0 | _ => dec_value ex 0 end) - Z.of_nat (length fp)))), lg).
Proof.
  intros Hi Hf Hx Hxn He Hsg Hcap.
  exact (single_token_evaluates _ _ _ _ f g E d lg (single_float_exp d0 ip fp e sg ex Hi Hf Hx Hxn He Hsg Hcap) eq_refl eq_refl).
Qed.

(** The first characters decide which literal loop runs.  The loops are kept folded while the
    dispatch is evaluated: compared by plain conversion they get unfolded on both sides, which is slow. *)
Lemma collect_token_quote q r l c : q = 39 \/ q = 34 ->
  collect_token (mkScan (q :: r) l c) =
  wrap_tok (mkLoc l c) (lex_string (S (S (length r))) q false false (mkScan r l (c + 1)) [] []).
Proof. intros [->| ->]; cbv -[lex_string lex_bytes lex_ident lex_number Z.add length]; reflexivity. Qed.

Lemma collect_token_bytes q r l c : q = 39 \/ q = 34 ->
  collect_token (mkScan (98 :: q :: r) l c) =
  wrap_tok (mkLoc l c) (lex_bytes (S (S (S (length r)))) q (mkScan r l (c + 1 + 1)) []).
Proof. intros [->| ->]; cbv -[lex_string lex_bytes lex_ident lex_number Z.add length]; reflexivity. Qed.

Lemma collect_token_raw q r l c : q = 39 \/ q = 34 ->
  collect_token (mkScan (114 :: q :: r) l c) =
  wrap_tok (mkLoc l c) (lex_string (S (S (S (length r)))) q true false (mkScan r l (c + 1 + 1)) [] []).
Proof. intros [->| ->]; cbv -[lex_string lex_bytes lex_ident lex_number Z.add length]; reflexivity. Qed.

(** every item takes at least one character of text, so the fuel [collect_token] gives the loop covers the items *)
Lemma items_le_text {A} (P : A -> chars -> Prop) (items : list (A * chars)) :
  (forall a sp, P a sp -> (1 <= length sp)%nat) -> Forall (fun it => P (fst it) (snd it)) items ->
  (length items <= length (flat_map snd items))%nat.
Proof.
  intros Hp. induction 1 as [|[a sp] r H _ IH]; [cbn; lia|]. cbn [flat_map snd length]. rewrite app_length.
  pose proof (Hp a sp H). lia.
Qed.

Lemma spells_nonempty q c sp : spells q c sp -> (1 <= length sp)%nat.
Proof. intros H. destruct H; cbn [length]; lia. Qed.

Lemma bspells_nonempty q bs sp : bspells q bs sp -> (1 <= length sp)%nat.
Proof. intros H. destruct H; cbn [length]; lia. Qed.

Lemma quote_not_backslash q : q = 39 \/ q = 34 -> q <> 92.
Proof. intros [->| ->]; discriminate. Qed.

Theorem single_string q items : (q = 39 \/ q = 34) ->
  Forall (fun it => spells q (fst it) (snd it)) items ->
  single_token (q :: text_of items ++ [q]) (TStringLit (map fst items)).
Proof.
  intros Hq Hsp. eapply (single_token_wrap _ _ _ _ _ (collect_token_quote q _ 0 0 Hq)).
  - apply lex_string_denotes with (tail := []) (work := []) (items := items); [exact (quote_not_backslash q Hq)|exact Hsp|reflexivity|].
    pose proof (items_le_text _ items (spells_nonempty q) Hsp). rewrite app_length. unfold text_of. lia.
  - apply advance_rest. cbn [sc_rest]. rewrite app_nil_r. reflexivity.
Qed.

(** A quoted string, every character spelled in any supported way (plain, simple escapes,
    \x, \u, \U, octal), evaluates to the UTF-8 encoding of exactly the spelled characters *)
Theorem string_source_evaluates q items f g E d lg : (q = 39 \/ q = 34) ->
  Forall (fun it => spells q (fst it) (snd it)) items -> (d < 32)%nat ->
  exists p k, compile_source (S f) (q :: text_of items ++ [q]) = COk p k /\
              run (S (S (S g))) E (pr_code p) true d lg = (ROk (VString (utf8_encode (map fst items))), lg).
Proof. intros Hq Hsp. exact (single_token_evaluates _ _ _ _ f g E d lg (single_string q items Hq Hsp) eq_refl eq_refl). Qed.

Theorem single_bytes q items : (q = 39 \/ q = 34) ->
  Forall (fun it => bspells q (fst it) (snd it)) items ->
  single_token (98 :: q :: btext_of items ++ [q]) (TByteStringLit (bytes_of_items items)).
Proof.
  intros Hq Hsp. eapply (single_token_wrap _ _ _ _ _ (collect_token_bytes q _ 0 0 Hq)).
  - apply lex_bytes_denotes with (tail := []) (acc := []) (items := items); [exact (quote_not_backslash q Hq)|exact Hsp|reflexivity|].
    pose proof (items_le_text _ items (bspells_nonempty q) Hsp). rewrite app_length. unfold btext_of. lia.
  - apply advance_rest. cbn [sc_rest]. rewrite app_nil_r. reflexivity.
Qed.

(** A bytes literal evaluates to exactly the bytes it spells *)
Theorem bytes_source_evaluates q items f g E d lg : (q = 39 \/ q = 34) ->
  Forall (fun it => bspells q (fst it) (snd it)) items -> (d < 32)%nat ->
  exists p k, compile_source (S f) (98 :: q :: btext_of items ++ [q]) = COk p k /\
              run (S (S (S g))) E (pr_code p) true d lg = (ROk (VBytes (bytes_of_items items)), lg).
Proof. intros Hq Hsp. exact (single_token_evaluates _ _ _ _ f g E d lg (single_bytes q items Hq Hsp) eq_refl eq_refl). Qed.

Theorem single_raw_string q cs : (q = 39 \/ q = 34) -> Forall (fun c => c <> q) cs ->
  single_token (114 :: q :: cs ++ [q]) (TStringLit cs).
Proof.
  intros Hq Hc. eapply (single_token_wrap _ _ _ _ _ (collect_token_raw q _ 0 0 Hq)).
  - apply lex_raw_string_denotes with (tail := []) (work := []); [exact Hc|reflexivity|]. rewrite app_length. lia.
  - apply advance_rest. cbn [sc_rest]. rewrite app_nil_r. reflexivity.
Qed.

(** A raw string evaluates to its text verbatim. *)
Theorem raw_string_source_evaluates q cs f g E d lg : (q = 39 \/ q = 34) -> Forall (fun c => c <> q) cs -> (d < 32)%nat ->
  exists p k, compile_source (S f) (114 :: q :: cs ++ [q]) = COk p k /\
              run (S (S (S g))) E (pr_code p) true d lg = (ROk (VString (utf8_encode cs)), lg).
Proof. intros Hq Hc. exact (single_token_evaluates _ _ _ _ f g E d lg (single_raw_string q cs Hq Hc) eq_refl eq_refl). Qed.
